(** Thread pools as lists: point update, the holder of a lock, and sums of a per-thread measure.
    Used by the interleaving models of C18; [Model/CogLayout.upd] and [Model/CrsCache.set_nth]
    are the same point update, and their proofs take its lemmas from here. *)
From Coq Require Import List Arith Lia.
Import ListNotations.

Fixpoint upd {A} (l : list A) (n : nat) (x : A) : list A :=
  match l, n with
  | [], _ => []
  | _ :: r, O => x :: r
  | a :: r, S n' => a :: upd r n' x
  end.

Lemma upd_length {A} (l : list A) n x : length (upd l n x) = length l.
Proof. revert n; induction l; intros [|n]; simpl; auto. Qed.

Lemma nth_error_upd_eq {A} (l : list A) n x y :
  nth_error l n = Some y -> nth_error (upd l n x) n = Some x.
Proof.
  revert n; induction l; intros [|n]; simpl; intros H; try discriminate; auto.
Qed.

Lemma nth_error_upd_neq {A} (l : list A) n m x :
  n <> m -> nth_error (upd l n x) m = nth_error l m.
Proof.
  revert n m; induction l; intros [|n] [|m]; simpl; intros H; auto; try congruence.
Qed.

Lemma nth_error_upd_inv {A} (l : list A) n m x y :
  nth_error (upd l n x) m = Some y ->
  (m = n /\ y = x) \/ (m <> n /\ nth_error l m = Some y).
Proof.
  revert n m; induction l as [|a r IH]; intros [|n] [|m]; simpl; intros H; try discriminate; auto.
  - left. split; congruence.
  - destruct (IH _ _ H) as [(-> & ->)|(? & ?)]; auto.
Qed.

(** [lock] names the thread holding a lock, if any: it is in the pool, at a [locked] position *)
Definition holder {A} (locked : A -> bool) (lock : option nat) (l : list A) : Prop :=
  forall t, lock = Some t -> exists a, nth_error l t = Some a /\ locked a = true.

(** thread [t] moves from [a] to [a']: the lock stays where it is (and [t], if it holds it,
    stays [locked]), or [t] has just taken it, or it is free *)
Lemma holder_upd {A} (locked : A -> bool) lock lock' (l : list A) t a a' :
  holder locked lock l -> nth_error l t = Some a ->
  (lock' = lock /\ (locked a = true -> locked a' = true)) \/
  (lock' = Some t /\ locked a' = true) \/ lock' = None ->
  holder locked lock' (upd l t a').
Proof.
  intros Hh Ht [(-> & Hk)|[(-> & Hk)| ->]] x Hx; [| |discriminate].
  - destruct (Hh x Hx) as (ax & Hax & Hlx). destruct (Nat.eq_dec t x) as [->|Hne].
    + exists a'. split; [eapply nth_error_upd_eq; eauto|]. apply Hk. congruence.
    + exists ax. rewrite nth_error_upd_neq; auto.
  - injection Hx as <-. exists a'. split; [eapply nth_error_upd_eq; eauto|exact Hk].
Qed.

Fixpoint sumf {A} (f : A -> nat) (l : list A) : nat :=
  match l with [] => 0 | a :: r => f a + sumf f r end.

Lemma sumf_upd {A} (f : A -> nat) (l : list A) n x y :
  nth_error l n = Some y -> sumf f (upd l n x) + f y = sumf f l + f x.
Proof.
  revert n; induction l; intros [|n]; simpl; intros H; try discriminate.
  - injection H as ->. lia.
  - specialize (IHl _ H). lia.
Qed.

Lemma sumf_zero {A} (f : A -> nat) (l : list A) :
  (forall a, In a l -> f a = 0) -> sumf f l = 0.
Proof.
  induction l; simpl; intros H; auto.
  rewrite (H a) by auto. rewrite IHl; auto.
Qed.

Lemma sumf_map {A B} (f : B -> nat) (g : A -> B) (l : list A) :
  sumf f (map g l) = sumf (fun a => f (g a)) l.
Proof. induction l; simpl; auto. Qed.

Lemma sumf_ext {A} (f g : A -> nat) (l : list A) :
  (forall a, In a l -> f a = g a) -> sumf f l = sumf g l.
Proof.
  induction l; simpl; intros H; [reflexivity|].
  rewrite (H a) by auto. rewrite IHl; [reflexivity|]. intros; apply H; auto.
Qed.

Lemma nth_error_map_some {A B} (g : A -> B) (l : list A) n y :
  nth_error (map g l) n = Some y -> exists x, nth_error l n = Some x /\ y = g x.
Proof. rewrite nth_error_map. destruct (nth_error l n); intros [= <-]; eauto. Qed.
