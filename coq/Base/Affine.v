(** Affine maps of the plane over Q (the model of the Python [affine.Affine]
    class as used by odc-geo):

        x' = a x + b y + c
        y' = d x + e y + f

    Equality is coefficient-wise [Qeq] ([aeq]); points are compared with [peq].
    The group laws are proved once here and used by every GeoBox theorem. *)
From Coq Require Import ZArith QArith Lqa.
Open Scope Q_scope.

Record affine := mkA { aa : Q; ab : Q; ac : Q; ad : Q; ae : Q; af : Q }.

Definition pt := (Q * Q)%type.
Definition peq (p q : pt) : Prop := fst p == fst q /\ snd p == snd q.
Definition aeq (A B : affine) : Prop :=
  aa A == aa B /\ ab A == ab B /\ ac A == ac B /\
  ad A == ad B /\ ae A == ae B /\ af A == af B.

Definition peqb (p q : pt) : bool := Qeq_bool (fst p) (fst q) && Qeq_bool (snd p) (snd q).
Definition aeqb (A B : affine) : bool :=
  Qeq_bool (aa A) (aa B) && Qeq_bool (ab A) (ab B) && Qeq_bool (ac A) (ac B) &&
  Qeq_bool (ad A) (ad B) && Qeq_bool (ae A) (ae B) && Qeq_bool (af A) (af B).

(** Constructors of the [affine] package. *)
Definition aid : affine := mkA 1 0 0 0 1 0.
Definition atrans (tx ty : Q) : affine := mkA 1 0 tx 0 1 ty.
Definition ascale (sx sy : Q) : affine := mkA sx 0 0 0 sy 0.
(** [Affine.rotation(angle, pivot)] with [c = cos angle], [s = sin angle]. *)
Definition arot (c s : Q) : affine := mkA c (- s) 0 s c 0.
Definition arot_about (c s : Q) (p : pt) : affine :=
  let '(px, py) := p in
  mkA c (- s) (px - px * c + py * s) s c (py - px * s - py * c).

(** [A * B] (apply [B] first), [A * (x, y)], [~A]. *)
Definition amul (A B : affine) : affine :=
  mkA (aa A * aa B + ab A * ad B) (aa A * ab B + ab A * ae B) (aa A * ac B + ab A * af B + ac A)
      (ad A * aa B + ae A * ad B) (ad A * ab B + ae A * ae B) (ad A * ac B + ae A * af B + af A).

Definition apply (A : affine) (p : pt) : pt :=
  (aa A * fst p + ab A * snd p + ac A, ad A * fst p + ae A * snd p + af A).

Definition adet (A : affine) : Q := aa A * ae A - ab A * ad A.

Definition ainv (A : affine) : affine :=
  let idet := / adet A in
  let ra := ae A * idet in
  let rb := - ab A * idet in
  let rd := - ad A * idet in
  let re := aa A * idet in
  mkA ra rb (- ac A * ra - af A * rb) rd re (- ac A * rd - af A * re).

Lemma peq_refl p : peq p p.
Proof. split; reflexivity. Qed.
Lemma peq_sym p q : peq p q -> peq q p.
Proof. intros [H1 H2]; split; symmetry; assumption. Qed.
Lemma peq_trans p q r : peq p q -> peq q r -> peq p r.
Proof. intros [H1 H2] [H3 H4]; split; etransitivity; eassumption. Qed.
Global Instance peq_Equiv : Equivalence peq.
Proof. split; [exact peq_refl | exact peq_sym | exact peq_trans]. Qed.

Lemma aeq_refl A : aeq A A.
Proof. repeat split; reflexivity. Qed.
Lemma aeq_sym A B : aeq A B -> aeq B A.
Proof. intros (H1 & H2 & H3 & H4 & H5 & H6); repeat split; symmetry; assumption. Qed.
Lemma aeq_trans A B C : aeq A B -> aeq B C -> aeq A C.
Proof.
  intros (H1 & H2 & H3 & H4 & H5 & H6) (K1 & K2 & K3 & K4 & K5 & K6);
    repeat split; etransitivity; eassumption.
Qed.
Global Instance aeq_Equiv : Equivalence aeq.
Proof. split; [exact aeq_refl | exact aeq_sym | exact aeq_trans]. Qed.

Lemma peqb_true p q : peqb p q = true <-> peq p q.
Proof.
  unfold peqb, peq. rewrite Bool.andb_true_iff, !Qeq_bool_iff. tauto.
Qed.

Lemma aeqb_true A B : aeqb A B = true <-> aeq A B.
Proof.
  unfold aeqb, aeq. rewrite !Bool.andb_true_iff, !Qeq_bool_iff. tauto.
Qed.

Global Instance apply_Proper : Proper (aeq ==> peq ==> peq) apply.
Proof.
  intros A B (H1 & H2 & H3 & H4 & H5 & H6) p q [P1 P2]; unfold apply, peq; cbn [fst snd].
  split; repeat (first [assumption | f_equiv]).
Qed.

Global Instance amul_Proper : Proper (aeq ==> aeq ==> aeq) amul.
Proof.
  intros A B (H1 & H2 & H3 & H4 & H5 & H6) C D (K1 & K2 & K3 & K4 & K5 & K6);
    unfold amul, aeq; cbn [aa ab ac ad ae af].
  repeat split; repeat (first [assumption | f_equiv]).
Qed.

Global Instance adet_Proper : Proper (aeq ==> Qeq) adet.
Proof.
  intros A B (H1 & H2 & H3 & H4 & H5 & H6); unfold adet. rewrite H1, H2, H4, H5. reflexivity.
Qed.

Global Instance ainv_Proper : Proper (aeq ==> aeq) ainv.
Proof.
  intros A B H. pose proof (adet_Proper _ _ H) as Hd.
  destruct H as (H1 & H2 & H3 & H4 & H5 & H6); unfold ainv, aeq; cbn [aa ab ac ad ae af].
  repeat split; repeat (first [assumption | f_equiv]).
Qed.

Lemma apply_mul A B p : peq (apply (amul A B) p) (apply A (apply B p)).
Proof. unfold apply, amul, peq; simpl; split; ring. Qed.

Lemma apply_id p : peq (apply aid p) p.
Proof. unfold apply, aid, peq; simpl; split; ring. Qed.

Lemma apply_inv_l A p : ~ adet A == 0 -> peq (apply (ainv A) (apply A p)) p.
Proof.
  intros H. unfold apply, ainv, peq; simpl. unfold adet in *. split; field; exact H.
Qed.

Lemma apply_inv_r A p : ~ adet A == 0 -> peq (apply A (apply (ainv A) p)) p.
Proof.
  intros H. unfold apply, ainv, peq; simpl. unfold adet in *. split; field; exact H.
Qed.

(** an affine map is determined by its values at (0,0), (1,0), (0,1), so the group laws of
    [amul] are those of the action *)
Lemma aeq_ext A B : (forall p, peq (apply A p) (apply B p)) -> aeq A B.
Proof.
  intros H. destruct (H (0, 0)) as [X0 Y0], (H (1, 0)) as [X1 Y1], (H (0, 1)) as [X2 Y2].
  unfold apply in *; cbn [fst snd] in *. repeat split; lra.
Qed.

Lemma amul_assoc A B C : aeq (amul (amul A B) C) (amul A (amul B C)).
Proof. apply aeq_ext. intros p. rewrite !apply_mul. reflexivity. Qed.

Lemma amul_id_l A : aeq (amul aid A) A.
Proof. apply aeq_ext. intros p. rewrite apply_mul. apply apply_id. Qed.

Lemma amul_id_r A : aeq (amul A aid) A.
Proof. apply aeq_ext. intros p. rewrite apply_mul, apply_id. reflexivity. Qed.

Lemma amul_inv_r A : ~ adet A == 0 -> aeq (amul A (ainv A)) aid.
Proof.
  intros H. apply aeq_ext. intros p. rewrite apply_mul, apply_id. apply apply_inv_r, H.
Qed.

Lemma amul_inv_l A : ~ adet A == 0 -> aeq (amul (ainv A) A) aid.
Proof.
  intros H. apply aeq_ext. intros p. rewrite apply_mul, apply_id. apply apply_inv_l, H.
Qed.

Lemma adet_mul A B : adet (amul A B) == adet A * adet B.
Proof. unfold adet, amul; simpl; ring. Qed.

Lemma adet_inv A : ~ adet A == 0 -> adet (ainv A) == / adet A.
Proof.
  intros H. unfold ainv. unfold adet at 1; cbn [aa ab ad ae]. unfold adet in *.
  field. exact H.
Qed.

Lemma adet_inv_nz A : ~ adet A == 0 -> ~ adet (ainv A) == 0.
Proof.
  intros H C. rewrite (adet_inv A H) in C.
  apply H. rewrite <- (Qinv_involutive (adet A)), C. reflexivity.
Qed.

Lemma apply_inj A p q : ~ adet A == 0 -> peq (apply A p) (apply A q) -> peq p q.
Proof.
  intros H E.
  rewrite <- (apply_inv_l A p H), <- (apply_inv_l A q H).
  apply apply_Proper; [reflexivity | exact E].
Qed.

Lemma apply_trans tx ty p : peq (apply (atrans tx ty) p) (fst p + tx, snd p + ty).
Proof. unfold apply, atrans, peq; simpl; split; ring. Qed.

Lemma apply_scale sx sy p : peq (apply (ascale sx sy) p) (sx * fst p, sy * snd p).
Proof. unfold apply, ascale, peq; simpl; split; ring. Qed.

Lemma apply_combination A (w1 w2 w3 w4 : Q) (p1 p2 p3 p4 : pt) :
  w1 + w2 + w3 + w4 == 1 ->
  peq (apply A (w1 * fst p1 + w2 * fst p2 + w3 * fst p3 + w4 * fst p4,
                w1 * snd p1 + w2 * snd p2 + w3 * snd p3 + w4 * snd p4))
      (w1 * fst (apply A p1) + w2 * fst (apply A p2) + w3 * fst (apply A p3) + w4 * fst (apply A p4),
       w1 * snd (apply A p1) + w2 * snd (apply A p2) + w3 * snd (apply A p3) + w4 * snd (apply A p4)).
Proof.
  intros H. unfold apply, peq; cbn [fst snd].
  assert (E : w4 == 1 - w1 - w2 - w3) by lra.
  split; ring [E].
Qed.

Lemma arot_about_fix c s p : peq (apply (arot_about c s p) p) p.
Proof. destruct p as [px py]. unfold apply, arot_about, peq; simpl; split; ring. Qed.

Lemma arot_about_disp c s p q :
  peq (apply (arot_about c s p) q)
      (fst p + (c * (fst q - fst p) - s * (snd q - snd p)),
       snd p + (s * (fst q - fst p) + c * (snd q - snd p))).
Proof. destruct p as [px py]. unfold apply, arot_about, peq; simpl; split; ring. Qed.

Lemma adet_rot_about c s p : adet (arot_about c s p) == c * c + s * s.
Proof. destruct p as [px py]. unfold adet, arot_about; simpl; ring. Qed.
