(** [Qlt_bool] with its specification; division by a positive number and the floor as
    equivalences ([Qdiv_ge_iff], [Qfloor_eq_iff]), on which the bin lookups of C12 and C14 turn;
    and [qmin] and [qmax], the models of Python's [min]/[max] on two rationals (on a tie [qmin]
    returns its first argument and [qmax] its second, so some equations hold only up to [==]),
    with their order facts, the case form by which a fold selects, and the four-element lists
    [min4]/[max4] of the corners of a bounding box.  The model files define the same functions
    under names of their own, convertible to these. *)
From Coq Require Import ZArith QArith Qround Bool Lia Lqa.
From OG Require Import Base.QZ.
Open Scope Q_scope.

Definition Qlt_bool (x y : Q) : bool := negb (Qle_bool y x).
Definition qmin (x y : Q) : Q := if Qle_bool x y then x else y.
Definition qmax (x y : Q) : Q := if Qle_bool x y then y else x.
Definition min4 (a b c d : Q) : Q := qmin (qmin (qmin a b) c) d.
Definition max4 (a b c d : Q) : Q := qmax (qmax (qmax a b) c) d.

Lemma Qlt_bool_true x y : Qlt_bool x y = true <-> x < y.
Proof.
  unfold Qlt_bool. rewrite negb_true_iff. apply Qle_bool_false.
Qed.

Lemma Qlt_bool_false x y : Qlt_bool x y = false <-> y <= x.
Proof.
  unfold Qlt_bool. rewrite negb_false_iff. apply Qle_bool_iff.
Qed.

Lemma Qlt_bool_spec x y : BoolSpec (x < y) (y <= x) (Qlt_bool x y).
Proof. destruct (Qlt_bool x y) eqn:E; constructor; [apply Qlt_bool_true | apply Qlt_bool_false]; exact E. Qed.

Global Instance Qlt_bool_comp : Proper (Qeq ==> Qeq ==> eq) Qlt_bool.
Proof. intros x x' Hx y y' Hy. unfold Qlt_bool. rewrite Hx, Hy. reflexivity. Qed.

Lemma Qdiv_ge_iff a b c : 0 < c -> (a <= b / c <-> a * c <= b).
Proof.
  intros Hc. assert (E : b / c * c == b) by (field; lra).
  rewrite <- (Qmult_le_r a (b / c) c Hc). rewrite E. reflexivity.
Qed.

Lemma Qdiv_lt_iff a b c : 0 < c -> (b / c < a <-> b < a * c).
Proof.
  intros Hc. assert (E : b / c * c == b) by (field; lra).
  rewrite <- (Qmult_lt_r (b / c) a c Hc). rewrite E. reflexivity.
Qed.

Lemma Qfloor_eq_iff q k : Qfloor q = k <-> inject_Z k <= q /\ q < inject_Z k + 1.
Proof.
  split.
  - intros <-. split; [apply Qfloor_le|].
    pose proof (Qlt_floor q) as H. rewrite inject_Z_plus in H. exact H.
  - intros [H1 H2]. apply Qfloor_ge_iff in H1.
    assert (H3 : (Qfloor q < k + 1)%Z).
    { apply Qfloor_lt_iff. rewrite inject_Z_plus. exact H2. }
    lia.
Qed.

Lemma qminmax_spec x y :
  (x <= y /\ qmin x y = x /\ qmax x y = y) \/ (y < x /\ qmin x y = y /\ qmax x y = x).
Proof. unfold qmin, qmax. destruct (Qle_bool_spec x y); auto. Qed.

Lemma qmin_spec x y : (x <= y /\ qmin x y = x) \/ (y < x /\ qmin x y = y).
Proof. destruct (qminmax_spec x y) as [(H & E & _) | (H & E & _)]; auto. Qed.

Lemma qmax_spec x y : (x <= y /\ qmax x y = y) \/ (y < x /\ qmax x y = x).
Proof. destruct (qminmax_spec x y) as [(H & _ & E) | (H & _ & E)]; auto. Qed.

(** the form in which a fold of [qmin] or [qmax] selects (Base/ListSel.v); for [qmax] the order
    is the converse one, transitive by [Qge_trans] *)
Lemma qmin_case a b : a <= b /\ qmin a b = a \/ b <= a /\ qmin a b = b.
Proof. destruct (qmin_spec a b) as [[H E] | [H E]]; [left | right]; split; try exact E; lra. Qed.

Lemma qmax_case a b : b <= a /\ qmax a b = a \/ a <= b /\ qmax a b = b.
Proof. destruct (qmax_spec a b) as [[H E] | [H E]]; [right | left]; split; try exact E; lra. Qed.

Lemma Qge_trans a b c : b <= a -> c <= b -> c <= a.
Proof. intros H1 H2. exact (Qle_trans _ _ _ H2 H1). Qed.

Lemma qmin_le a b : a <= b -> qmin a b = a.
Proof. intros H. destruct (qmin_spec a b) as [[_ E] | [C _]]; [exact E | lra]. Qed.

Lemma qmax_le a b : a <= b -> qmax a b = b.
Proof. intros H. destruct (qmax_spec a b) as [[_ E] | [C _]]; [exact E | lra]. Qed.

Lemma qmin_lb a b : qmin a b <= a /\ qmin a b <= b.
Proof. destruct (qmin_spec a b) as [[H ->] | [H ->]]; lra. Qed.

Lemma qmax_ub a b : a <= qmax a b /\ b <= qmax a b.
Proof. destruct (qmax_spec a b) as [[H ->] | [H ->]]; lra. Qed.

Lemma qmin_glb a b c : c <= a -> c <= b -> c <= qmin a b.
Proof. intros Ha Hb. destruct (qmin_spec a b) as [[_ ->] | [_ ->]]; assumption. Qed.

Lemma qmax_lub a b c : a <= c -> b <= c -> qmax a b <= c.
Proof. intros Ha Hb. destruct (qmax_spec a b) as [[_ ->] | [_ ->]]; assumption. Qed.

(* only [==]: on a tie [qmin] returns its first argument and [qmax] its second *)
Lemma qmin_ge a b : b <= a -> qmin a b == b.
Proof. intros H. apply Qle_antisym; [apply qmin_lb | apply qmin_glb; lra]. Qed.

Lemma qmax_ge a b : b <= a -> qmax a b == a.
Proof. intros H. apply Qle_antisym; [apply qmax_lub; lra | apply qmax_ub]. Qed.

Lemma qmin_id a : qmin a a = a.
Proof. apply qmin_le. lra. Qed.

Lemma qmax_id a : qmax a a = a.
Proof. apply qmax_le. lra. Qed.

Lemma qmin_absorb_r a b : qmin (qmin a b) b = qmin a b.
Proof. apply qmin_le, qmin_lb. Qed.

Lemma qmin_absorb_l a b : qmin (qmin a b) a = qmin a b.
Proof. apply qmin_le, qmin_lb. Qed.

Lemma qmax_absorb_r a b : qmax (qmax a b) b = qmax a b.
Proof.
  destruct (qmax_spec a b) as [[_ E] | [L E]]; rewrite E; [apply qmax_id | exact E].
Qed.

(* [qmax b a], not [qmax a b]: on a tie the two agree only up to [==] *)
Lemma qmax_absorb_l a b : qmax (qmax a b) a = qmax b a.
Proof.
  destruct (qmax_spec a b) as [[_ E] | [L E]]; rewrite E; [reflexivity|].
  rewrite qmax_id. symmetry. apply qmax_le. lra.
Qed.

(** The corner lists of [BoundingBox.transform] and [BoundingBox.from_transform]
    for a diagonal affine hold two values, each twice. *)
Lemma min4_aabb a b : min4 a a b b = qmin a b.
Proof. unfold min4. rewrite qmin_id. apply qmin_absorb_r. Qed.

Lemma min4_abab a b : min4 a b a b = qmin a b.
Proof. unfold min4. rewrite qmin_absorb_l. apply qmin_absorb_r. Qed.

Lemma min4_abba a b : min4 a b b a = qmin a b.
Proof. unfold min4. rewrite qmin_absorb_r. apply qmin_absorb_l. Qed.

Lemma max4_aabb a b : max4 a a b b = qmax a b.
Proof. unfold max4. rewrite qmax_id. apply qmax_absorb_r. Qed.

Lemma max4_abab a b : max4 a b a b = qmax a b.
Proof. unfold max4. rewrite qmax_absorb_l. apply qmax_absorb_l. Qed.

Lemma max4_abba a b : max4 a b b a = qmax b a.
Proof. unfold max4. rewrite qmax_absorb_r. apply qmax_absorb_l. Qed.
