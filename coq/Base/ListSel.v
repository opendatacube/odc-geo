(** Python/numpy style contiguous selection [X[s:e]] on lists ([sel]), reasoned about through
    [nth_error]; what the accumulator of a [fold_left] has taken in ([fold_left_covers]) and, from
    it, the fold of a binary choice (min, max), which returns a least member; monotone boundary
    functions ([bounds]: consecutive tiles) and the steps of prefix sums. *)
From Coq Require Import ZArith List Lia.
Import ListNotations.
Open Scope Z_scope.

Definition len {A} (l : list A) : Z := Z.of_nat (length l).
Definition take {A} (n : Z) (l : list A) : list A := firstn (Z.to_nat n) l.
Definition drop {A} (n : Z) (l : list A) : list A := skipn (Z.to_nat n) l.

(** [X[s:e]] for non-negative [s], [e] (numpy clamps to the length by itself). *)
Definition sel {A} (X : list A) (s e : Z) : list A := drop s (take e X).

Lemma len_nonneg {A} (l : list A) : 0 <= len l.
Proof. unfold len; lia. Qed.

Lemma len_app {A} (a b : list A) : len (a ++ b) = len a + len b.
Proof. unfold len; rewrite app_length; lia. Qed.

Lemma len_map {A B} (f : A -> B) l : len (map f l) = len l.
Proof. unfold len; rewrite map_length; reflexivity. Qed.

Lemma len_take {A} n (l : list A) : 0 <= n -> len (take n l) = Z.min n (len l).
Proof. unfold len, take; intros; rewrite firstn_length; lia. Qed.

Lemma len_drop {A} n (l : list A) : 0 <= n -> len (drop n l) = Z.max 0 (len l - n).
Proof. unfold len, drop; intros; rewrite skipn_length; lia. Qed.

Lemma take_drop {A} n (l : list A) : take n l ++ drop n l = l.
Proof. apply firstn_skipn. Qed.

Lemma nth_error_ext {A} (l1 l2 : list A) :
  (forall i, nth_error l1 i = nth_error l2 i) -> l1 = l2.
Proof.
  revert l2; induction l1 as [|a l1 IH]; intros [|b l2] H; auto.
  - specialize (H 0%nat); discriminate.
  - specialize (H 0%nat); discriminate.
  - f_equal.
    + specialize (H 0%nat); simpl in H; congruence.
    + apply IH; intros i; exact (H (S i)).
Qed.

Lemma nth_error_firstn {A} (l : list A) n i :
  nth_error (firstn n l) i = if (i <? n)%nat then nth_error l i else None.
Proof.
  revert n i; induction l as [|a l IH]; intros [|n] [|i]; simpl; auto.
  - destruct (_ <? _)%nat; auto.
  - rewrite IH. reflexivity.
Qed.

Lemma nth_error_skipn {A} (l : list A) n i :
  nth_error (skipn n l) i = nth_error l (n + i).
Proof.
  revert l; induction n as [|n IH]; intros [|a l]; simpl; auto.
  destruct i; reflexivity.
Qed.

Lemma nth_error_sel {A} (X : list A) s e i :
  0 <= s -> 0 <= e ->
  nth_error (sel X s e) i =
    if (s + Z.of_nat i <? e) then nth_error X (Z.to_nat s + i) else None.
Proof.
  intros Hs He; unfold sel, drop, take.
  rewrite nth_error_skipn, nth_error_firstn.
  destruct (Nat.ltb_spec (Z.to_nat s + i) (Z.to_nat e)); destruct (Z.ltb_spec (s + Z.of_nat i) e);
    auto; lia.
Qed.

Lemma len_sel {A} (X : list A) s e :
  0 <= s -> 0 <= e -> len (sel X s e) = Z.max 0 (Z.min e (len X) - s).
Proof. intros; unfold sel; rewrite len_drop, len_take by lia; lia. Qed.

Lemma sel_full {A} (X : list A) e : len X <= e -> sel X 0 e = X.
Proof.
  intros H; unfold sel, drop, take; simpl.
  apply firstn_all2; unfold len in H; lia.
Qed.

Lemma sel_empty {A} (X : list A) s e : 0 <= s -> 0 <= e -> e <= s -> sel X s e = [].
Proof.
  intros Hs He H; apply nth_error_ext; intros i.
  rewrite nth_error_sel by lia.
  destruct (Z.ltb_spec (s + Z.of_nat i) e); [lia|]. destruct i; reflexivity.
Qed.

Lemma sel_sel {A} (X : list A) s1 e1 s2 e2 :
  0 <= s1 -> 0 <= e1 -> 0 <= s2 -> 0 <= e2 ->
  sel (sel X s1 e1) s2 e2 = sel X (s1 + s2) (Z.min e1 (s1 + e2)).
Proof.
  intros; apply nth_error_ext; intros i.
  rewrite !nth_error_sel by lia.
  repeat match goal with |- context [Z.ltb ?a ?b] => destruct (Z.ltb_spec a b) end; try lia; auto.
  f_equal; lia.
Qed.

Lemma sel_clamp {A} (X : list A) s e :
  0 <= s -> 0 <= e -> sel X s e = sel X (Z.min s (len X)) (Z.min e (len X)).
Proof.
  intros Hs He. pose proof (len_nonneg X) as Hn.
  (* [X] is [X[0:len X]]; a start beyond the end selects nothing *)
  transitivity (sel (sel X 0 (len X)) s e); [rewrite sel_full by lia; reflexivity|].
  rewrite sel_sel by lia. destruct (Z.le_gt_cases s (len X)).
  - f_equal; lia.
  - rewrite !sel_empty by lia. reflexivity.
Qed.

Lemma sel_app_mid {A} (a b c : list A) : sel (a ++ b ++ c) (len a) (len a + len b) = b.
Proof.
  unfold sel, take, drop, len. rewrite <- Nat2Z.inj_add, <- app_length, !Nat2Z.id, app_assoc.
  rewrite firstn_app, firstn_all, Nat.sub_diag, app_nil_r.
  rewrite skipn_app, skipn_all, Nat.sub_diag. reflexivity.
Qed.

(** An accumulator that keeps [P _ p] once it holds and establishes it when it meets [p]
    has [P _ p] at the end for every [p] it was started with or has met. *)
Lemma fold_left_covers {A B} (P : A -> B -> Prop) (g : A -> B -> A) :
  (forall a q p, P a p \/ p = q -> P (g a q) p) ->
  forall l a p, P a p \/ In p l -> P (fold_left g l a) p.
Proof.
  intros Hg. induction l as [|q l IH]; intros a p H; cbn [fold_left].
  - destruct H as [H | []]. exact H.
  - apply IH. destruct H as [H | [<- | H]]; [left; apply Hg; left; exact H | left; apply Hg; right; reflexivity | right; exact H].
Qed.

Section FoldSel.
  Context {A} (R : A -> A -> Prop) (pick : A -> A -> A).

  Lemma fold_left_sel_In : (forall a b, pick a b = a \/ pick a b = b) ->
    forall l d, In (fold_left pick l d) (d :: l).
  Proof.
    intros Hp. induction l as [|b l IH]; intros d; cbn [fold_left]; [left; reflexivity|].
    destruct (IH (pick d b)) as [E | H]; [|right; right; exact H].
    rewrite <- E. destruct (Hp d b) as [-> | ->]; [left | right; left]; reflexivity.
  Qed.

  Lemma fold_left_sel_le : (forall a, R a a) -> (forall a b c, R a b -> R b c -> R a c) ->
    (forall a b, R (pick a b) a /\ R (pick a b) b) ->
    forall l d v, In v (d :: l) -> R (fold_left pick l d) v.
  Proof.
    intros Hrefl Htrans Hp l d v H. apply (fold_left_covers R pick).
    - intros a q p [Hap | ->]; [apply (Htrans _ a); [apply Hp | exact Hap] | apply Hp].
    - destruct H as [<- | H]; [left; apply Hrefl | right; exact H].
  Qed.

  Hypothesis R_trans : forall a b c, R a b -> R b c -> R a c.
  Hypothesis pick_case : forall a b, R a b /\ pick a b = a \/ R b a /\ pick a b = b.

  Lemma fold_left_sel_spec l d :
    In (fold_left pick l d) (d :: l) /\ forall x, In x (d :: l) -> R (fold_left pick l d) x.
  Proof.
    assert (Hrefl : forall a, R a a) by (intros a; destruct (pick_case a a) as [[H _] | [H _]]; exact H).
    split.
    - apply fold_left_sel_In. intros a b. destruct (pick_case a b) as [[_ E] | [_ E]]; auto.
    - apply (fold_left_sel_le Hrefl R_trans).
      intros a b. destruct (pick_case a b) as [[H ->] | [H ->]]; auto.
  Qed.

  Lemma fold_left_sel_map {X} (f : X -> A) l x : let m := fold_left pick (map f l) (f x) in
    (exists y, In y (x :: l) /\ m = f y) /\ forall y, In y (x :: l) -> R m (f y).
  Proof.
    intros m. destruct (fold_left_sel_spec (map f l) (f x)) as [M L].
    change (f x :: map f l) with (map f (x :: l)) in M, L. split.
    - apply in_map_iff in M as (y & E & Hy). exists y. auto.
    - intros y Hy. apply L, in_map, Hy.
  Qed.
End FoldSel.

Lemma fold_left_min_spec l d :
  In (fold_left Z.min l d) (d :: l) /\ forall x, In x (d :: l) -> fold_left Z.min l d <= x.
Proof. apply (fold_left_sel_spec Z.le Z.min); intros; lia. Qed.

Lemma fold_left_max_spec l d :
  In (fold_left Z.max l d) (d :: l) /\ forall x, In x (d :: l) -> x <= fold_left Z.max l d.
Proof. apply (fold_left_sel_spec (fun m x => x <= m) Z.max); intros; lia. Qed.

(** [B 0 <= B 1 <= ... <= B k]: the boundaries of [k] consecutive tiles [B i, B (i+1)) *)
Definition bounds (k : Z) (B : Z -> Z) : Prop := forall i, 0 <= i < k -> B i <= B (i + 1).

Lemma bounds_mono k B : bounds k B -> forall i j, 0 <= i <= j -> j <= k -> B i <= B j.
Proof.
  intros HB i j (Hi & Hij). revert j Hij.
  apply (Z.le_ind (fun j => j <= k -> B i <= B j)); [intros ? ? ->; reflexivity | lia |].
  intros j Hj IH Hk. specialize (HB j ltac:(lia)). rewrite <- Z.add_1_r. lia.
Qed.

Lemma bounds_unique k B p i j :
  bounds k B -> 0 <= i < k -> 0 <= j < k ->
  B i <= p < B (i + 1) -> B j <= p < B (j + 1) -> i = j.
Proof.
  intros HB Hi Hj Pi Pj.
  destruct (Z.lt_trichotomy i j) as [L | [E | L]]; auto.
  - pose proof (bounds_mono k B HB (i + 1) j ltac:(lia) ltac:(lia)). lia.
  - pose proof (bounds_mono k B HB (j + 1) i ltac:(lia) ltac:(lia)). lia.
Qed.

Lemma lsum_firstn_S l : forall n,
  fold_right Z.add 0 (firstn (S n) l) = fold_right Z.add 0 (firstn n l) + nth n l 0.
Proof.
  induction l as [|a l IH]; intros [|n]; try reflexivity.
  - cbn. lia.
  - rewrite (firstn_cons (S n)), (firstn_cons n). cbn [fold_right nth]. rewrite IH. lia.
Qed.

Lemma lsum_firstn_mono l n1 n2 : Forall (fun s => 0 <= s) l -> (n1 <= n2)%nat ->
  fold_right Z.add 0 (firstn n1 l) <= fold_right Z.add 0 (firstn n2 l).
Proof.
  intros Hs. induction 1 as [|n2 _ IH]; [lia|]. rewrite lsum_firstn_S.
  destruct (nth_in_or_default n2 l 0) as [Hin | ->]; [|lia].
  rewrite Forall_forall in Hs. specialize (Hs _ Hin). lia.
Qed.
