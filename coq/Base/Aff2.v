(** Small self-contained 2-d affine maps over [Q], written after the [affine]
    package (3.0.1) that odc-geo uses: [aff_mul] is [Affine.__matmul__],
    [aff_inv] is [Affine.__invert__] (same operation order), [aff_tr] is
    [Affine.translation], [aff_apply] is [A * (x, y)].  Used by the C16 model. *)
From Coq Require Import ZArith QArith.
Open Scope Q_scope.

Record aff := mkAff { aa : Q; ab : Q; ac : Q; ad : Q; ae : Q; af : Q }.

Definition aff_id : aff := mkAff 1 0 0 0 1 0.
Definition aff_tr (tx ty : Q) : aff := mkAff 1 0 tx 0 1 ty.

Definition aff_mul (s o : aff) : aff :=
  mkAff (aa s * aa o + ab s * ad o)
        (aa s * ab o + ab s * ae o)
        (aa s * ac o + ab s * af o + ac s)
        (ad s * aa o + ae s * ad o)
        (ad s * ab o + ae s * ae o)
        (ad s * ac o + ae s * af o + af s).

Definition aff_det (s : aff) : Q := aa s * ae s - ab s * ad s.

(** [Affine.__invert__]: the caller tests [is_degenerate] (det == 0) first *)
Definition aff_inv (s : aff) : aff :=
  let idet := 1 / aff_det s in
  let ra := ae s * idet in
  let rb := - ab s * idet in
  let rd := - ad s * idet in
  let re := aa s * idet in
  mkAff ra rb (- ac s * ra - af s * rb) rd re (- ac s * rd - af s * re).

Definition aff_apply (s : aff) (p : Q * Q) : Q * Q :=
  (fst p * aa s + snd p * ab s + ac s, fst p * ad s + snd p * ae s + af s).

Definition aff_eq (x y : aff) : Prop :=
  aa x == aa y /\ ab x == ab y /\ ac x == ac y /\ ad x == ad y /\ ae x == ae y /\ af x == af y.

Definition aff_eqb (x y : aff) : bool :=
  Qeq_bool (aa x) (aa y) && Qeq_bool (ab x) (ab y) && Qeq_bool (ac x) (ac y) &&
  Qeq_bool (ad x) (ad y) && Qeq_bool (ae x) (ae y) && Qeq_bool (af x) (af y).

Definition pt_eq (p q : Q * Q) : Prop := fst p == fst q /\ snd p == snd q.

Lemma aff_eq_refl x : aff_eq x x.
Proof. unfold aff_eq; repeat split; reflexivity. Qed.

Lemma aff_eq_sym x y : aff_eq x y -> aff_eq y x.
Proof. unfold aff_eq; intros (A & B & C & D & E & F); repeat split; symmetry; assumption. Qed.

Lemma aff_eq_trans x y z : aff_eq x y -> aff_eq y z -> aff_eq x z.
Proof.
  unfold aff_eq; intros (A & B & C & D & E & F) (A' & B' & C' & D' & E' & F').
  repeat split; etransitivity; eassumption.
Qed.

Global Instance aff_eq_equiv : Equivalence aff_eq :=
  Build_Equivalence _ aff_eq_refl aff_eq_sym aff_eq_trans.

Lemma aff_eqb_true x y : aff_eqb x y = true <-> aff_eq x y.
Proof.
  unfold aff_eqb, aff_eq. rewrite !Bool.andb_true_iff, !Qeq_bool_iff. tauto.
Qed.

Lemma aff_mul_assoc x y z : aff_eq (aff_mul (aff_mul x y) z) (aff_mul x (aff_mul y z)).
Proof. unfold aff_eq, aff_mul; simpl; repeat split; ring. Qed.

Lemma aff_mul_compat x x' y y' : aff_eq x x' -> aff_eq y y' -> aff_eq (aff_mul x y) (aff_mul x' y').
Proof.
  unfold aff_eq, aff_mul; simpl.
  intros (A & B & C & D & E & F) (A' & B' & C' & D' & E' & F').
  repeat split; rewrite ?A, ?B, ?C, ?D, ?E, ?F, ?A', ?B', ?C', ?D', ?E', ?F'; reflexivity.
Qed.

Global Instance aff_mul_proper : Proper (aff_eq ==> aff_eq ==> aff_eq) aff_mul.
Proof. intros x x' Hx y y' Hy. exact (aff_mul_compat x x' y y' Hx Hy). Qed.

Lemma aff_mul_id_l x : aff_eq (aff_mul aff_id x) x.
Proof. unfold aff_eq, aff_mul; simpl; repeat split; ring. Qed.

Lemma aff_mul_id_r x : aff_eq (aff_mul x aff_id) x.
Proof. unfold aff_eq, aff_mul; simpl; repeat split; ring. Qed.

Lemma aff_tr_tr a b c d : aff_eq (aff_mul (aff_tr a b) (aff_tr c d)) (aff_tr (a + c) (b + d)).
Proof. unfold aff_eq, aff_mul; simpl; repeat split; ring. Qed.

Lemma aff_det_mul_tr b p q : aff_det (aff_mul b (aff_tr p q)) == aff_det b.
Proof. unfold aff_det, aff_mul; simpl; ring. Qed.

Lemma aff_det_compat x y : aff_eq x y -> aff_det x == aff_det y.
Proof.
  unfold aff_eq, aff_det. intros (A & B & C & D & E & F). rewrite A, B, D, E. reflexivity.
Qed.

Lemma aff_inv_compat x y : aff_eq x y -> aff_eq (aff_inv x) (aff_inv y).
Proof.
  intros H. pose proof (aff_det_compat x y H) as Hd.
  destruct H as (A & B & C & D & E & F).
  unfold aff_eq, aff_inv; simpl.
  repeat split; rewrite ?Hd, ?A, ?B, ?C, ?D, ?E, ?F; reflexivity.
Qed.

Global Instance aff_det_proper : Proper (aff_eq ==> Qeq) aff_det := aff_det_compat.
Global Instance aff_inv_proper : Proper (aff_eq ==> aff_eq) aff_inv := aff_inv_compat.

Lemma aff_inv_l s : ~ aff_det s == 0 -> aff_eq (aff_mul (aff_inv s) s) aff_id.
Proof.
  intros H. unfold aff_eq, aff_mul, aff_inv, aff_det in *; simpl.
  repeat split; field; exact H.
Qed.

Lemma aff_inv_r s : ~ aff_det s == 0 -> aff_eq (aff_mul s (aff_inv s)) aff_id.
Proof.
  intros H. unfold aff_eq, aff_mul, aff_inv, aff_det in *; simpl.
  repeat split; field; exact H.
Qed.

(** The key fact behind every "common grid" theorem: two grids obtained from one
    base by pixel-side translations differ by exactly the difference of the
    translations, whatever the (invertible) base is. *)
Lemma aff_family_translation b p q r s :
  ~ aff_det b == 0 ->
  aff_eq (aff_mul (aff_inv (aff_mul b (aff_tr r s))) (aff_mul b (aff_tr p q)))
         (aff_tr (p - r) (q - s)).
Proof.
  intros H.
  assert (E : aff_eq (aff_mul b (aff_tr p q)) (aff_mul (aff_mul b (aff_tr r s)) (aff_tr (p - r) (q - s)))).
  { unfold aff_eq, aff_mul; simpl; repeat split; ring. }
  rewrite E, <- aff_mul_assoc, aff_inv_l by (rewrite aff_det_mul_tr; exact H).
  apply aff_mul_id_l.
Qed.

Lemma aff_apply_mul x y p : pt_eq (aff_apply (aff_mul x y) p) (aff_apply x (aff_apply y p)).
Proof. unfold pt_eq, aff_apply, aff_mul; simpl; split; ring. Qed.

Lemma aff_apply_inv s p : ~ aff_det s == 0 -> pt_eq (aff_apply s (aff_apply (aff_inv s) p)) p.
Proof.
  intros H. unfold pt_eq, aff_apply, aff_inv, aff_det in *; simpl. split; field; exact H.
Qed.

Lemma aff_apply_inv' s p : ~ aff_det s == 0 -> pt_eq (aff_apply (aff_inv s) (aff_apply s p)) p.
Proof.
  intros H. unfold pt_eq, aff_apply, aff_inv, aff_det in *; simpl. split; field; exact H.
Qed.

Lemma aff_apply_tr tx ty p : pt_eq (aff_apply (aff_tr tx ty) p) (fst p + tx, snd p + ty).
Proof. unfold pt_eq, aff_apply, aff_tr; simpl; split; ring. Qed.
