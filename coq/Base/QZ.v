(** Facts about rationals that the standard library lacks, shared by the Proofs files: the
    boolean comparisons as [BoolSpec]s; [inject_Z] against the order and subtraction (two
    integers less than 1 apart are equal); floor and ceiling, as equivalences between an integer
    and a rational inequality and in the existential form in which [lra] can take the rounded
    value for a variable (DESIGN.md appendix A.2); [Qabs] by cases; square roots (the non-negative
    root is unique; the root of a fraction in lowest terms). *)
From Coq Require Import ZArith QArith Qround Qabs Lia Lqa.
Open Scope Q_scope.

Lemma Qle_bool_false x y : Qle_bool x y = false <-> y < x.
Proof.
  split; intros H.
  - apply Qnot_le_lt; intros C. apply Qle_bool_iff in C. congruence.
  - destruct (Qle_bool x y) eqn:E; auto. apply Qle_bool_iff in E. lra.
Qed.

Lemma Qle_bool_spec x y : BoolSpec (x <= y) (y < x) (Qle_bool x y).
Proof. destruct (Qle_bool x y) eqn:E; constructor; [apply Qle_bool_iff | apply Qle_bool_false]; exact E. Qed.

Lemma Qeq_bool_false x y : ~ x == y -> Qeq_bool x y = false.
Proof.
  intros H. destruct (Qeq_bool x y) eqn:E; [|reflexivity]. apply Qeq_bool_iff in E. contradiction.
Qed.

Lemma inj1 : inject_Z 1 == 1.
Proof. reflexivity. Qed.

Lemma Qdiv_1 x : x / inject_Z 1 == x.
Proof. change (inject_Z 1) with 1. field. Qed.

Lemma inject_Z_sub a b : inject_Z (a - b) == inject_Z a - inject_Z b.
Proof. unfold Z.sub. rewrite inject_Z_plus, inject_Z_opp. reflexivity. Qed.

Lemma inject_Z_gt0 n : (0 < n)%Z -> 0 < inject_Z n.
Proof. intros H. rewrite Zlt_Qlt in H. exact H. Qed.

Lemma inject_Z_ge0 n : (0 <= n)%Z -> 0 <= inject_Z n.
Proof. intros H. rewrite Zle_Qle in H. exact H. Qed.

Lemma inject_Z_ge1 n : (1 <= n)%Z -> 1 <= inject_Z n.
Proof. intros H. rewrite Zle_Qle in H. exact H. Qed.

Lemma inject_Z_succ_le a b : (a < b)%Z -> inject_Z a + 1 <= inject_Z b.
Proof. rewrite <- inj1, <- inject_Z_plus, <- Zle_Qle. lia. Qed.

Lemma inject_Z_close a b : inject_Z a - inject_Z b < 1 -> inject_Z b - inject_Z a < 1 -> a = b.
Proof. rewrite <- inj1, <- !inject_Z_sub, <- !Zlt_Qlt. lia. Qed.

Lemma inject_Z_apart a b : a <> b -> 1 <= inject_Z a - inject_Z b \/ 1 <= inject_Z b - inject_Z a.
Proof. rewrite <- inj1, <- !inject_Z_sub, <- !Zle_Qle. lia. Qed.

Lemma dir_sq d : (d = 1%Z \/ d = (-1)%Z) -> inject_Z d * inject_Z d == 1.
Proof. intros [-> | ->]; reflexivity. Qed.

Lemma Qfloor_spec x : exists f, f = inject_Z (Qfloor x) /\ f <= x /\ x < f + 1.
Proof.
  exists (inject_Z (Qfloor x)); split; [reflexivity|]; split.
  - apply Qfloor_le.
  - pose proof (Qlt_floor x) as H. rewrite inject_Z_plus in H. exact H.
Qed.

Lemma Qceiling_spec x : exists c, c = inject_Z (Qceiling x) /\ c - 1 < x /\ x <= c.
Proof.
  exists (inject_Z (Qceiling x)); split; [reflexivity|]; split.
  - pose proof (Qceiling_lt x) as H. unfold Z.sub in H.
    rewrite inject_Z_plus, inject_Z_opp in H. exact H.
  - apply Qle_ceiling.
Qed.

Lemma Qfloor_ge_iff (z : Z) x : (z <= Qfloor x)%Z <-> inject_Z z <= x.
Proof.
  split; intros H.
  - eapply Qle_trans; [|apply Qfloor_le]. rewrite <- Zle_Qle. exact H.
  - rewrite <- (Qfloor_Z z). apply Qfloor_resp_le. exact H.
Qed.

Lemma Qceiling_le_iff (z : Z) x : (Qceiling x <= z)%Z <-> x <= inject_Z z.
Proof.
  split; intros H.
  - eapply Qle_trans; [apply Qle_ceiling|]. rewrite <- Zle_Qle. exact H.
  - rewrite <- (Qceiling_Z z). apply Qceiling_resp_le. exact H.
Qed.

Lemma Qfloor_lt_iff (z : Z) x : (Qfloor x < z)%Z <-> x < inject_Z z.
Proof.
  split; intros H.
  - apply Qnot_le_lt; intros C. apply Qfloor_ge_iff in C. lia.
  - apply Z.nle_gt; intros C. apply Qfloor_ge_iff in C. lra.
Qed.

Lemma Qceiling_gt_iff (z : Z) x : (z < Qceiling x)%Z <-> inject_Z z < x.
Proof.
  split; intros H.
  - apply Qnot_le_lt; intros C. apply Qceiling_le_iff in C. lia.
  - apply Z.nle_gt; intros C. apply Qceiling_le_iff in C. lra.
Qed.

Lemma Qceiling_ge (z : Z) x : inject_Z z <= x -> (z <= Qceiling x)%Z.
Proof. intros H. rewrite Zle_Qle. eapply Qle_trans; [exact H | apply Qle_ceiling]. Qed.

Lemma Qfloor_le_Z (z : Z) x : x <= inject_Z z -> (Qfloor x <= z)%Z.
Proof. intros H. rewrite Zle_Qle. eapply Qle_trans; [apply Qfloor_le | exact H]. Qed.

Lemma Qfloor_le_ceiling x : (Qfloor x <= Qceiling x)%Z.
Proof.
  rewrite Zle_Qle. eapply Qle_trans; [apply Qfloor_le | apply Qle_ceiling].
Qed.

Lemma Qfloor_range (x : Q) (n : Z) : 0 <= x -> x < inject_Z n -> (0 <= Qfloor x < n)%Z.
Proof. intros H0 H1. split; [apply Qfloor_ge_iff; exact H0 | apply Qfloor_lt_iff; exact H1]. Qed.

Lemma Qfloor_in_range (x : Q) (lo hi : Z) :
  (lo <= Qfloor x < hi)%Z -> inject_Z lo <= x /\ x <= inject_Z hi.
Proof.
  intros [H1 H2]. apply Qfloor_ge_iff in H1. apply Qfloor_lt_iff in H2. lra.
Qed.

Lemma Qfloor_near_half x n : Qabs (x - (inject_Z n + (1#2))) < 1#2 -> Qfloor x = n.
Proof.
  intros H. apply Qabs_Qlt_condition in H. destruct (Qfloor_spec x) as (f & Ef & F1 & F2).
  apply inject_Z_close; rewrite <- Ef; lra.
Qed.

(** absolute value, in the case form that lra can use *)
Lemma Qabs_cases x : (0 < x /\ Qabs x == x) \/ (x <= 0 /\ Qabs x == - x).
Proof.
  destruct (Qlt_le_dec 0 x) as [L|L]; [left | right]; split; try exact L;
    [apply Qabs_pos; lra | apply Qabs_neg; exact L].
Qed.

Lemma Qabs_nonzero x : ~ x == 0 -> 0 < Qabs x.
Proof. intros H. apply Qabs_case; intros; lra. Qed.

Lemma root_unique a b : 0 <= a -> 0 <= b -> a * a == b * b -> a == b.
Proof. intros Ha Hb H. destruct (Q_dec a b) as [[C|C]|C]; [nra | nra | exact C]. Qed.

Lemma Qsq_eq_abs x y : 0 <= x -> x * x == y * y -> x == Qabs y.
Proof.
  intros Hx E. apply root_unique; [exact Hx | apply Qabs_nonneg | rewrite E; apply Qabs_case; intros; ring].
Qed.

Lemma Qsqrt_red x (rn rd : Z) :
  (0 <= rn)%Z -> (0 <= rd)%Z -> (rn * rn = Qnum (Qred x))%Z -> (rd * rd = Zpos (Qden (Qred x)))%Z ->
  0 <= rn # Z.to_pos rd /\ (rn # Z.to_pos rd) * (rn # Z.to_pos rd) == x.
Proof.
  intros Hn Hd En Ed. split; [unfold Qle; simpl; lia|].
  assert (E : Zpos (Z.to_pos rd) = rd) by (destruct rd; [discriminate Ed | reflexivity | lia]).
  rewrite <- (Qred_correct x). unfold Qeq, Qmult. simpl. rewrite Pos2Z.inj_mul, E, <- En, <- Ed. ring.
Qed.
