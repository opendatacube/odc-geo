(** The result type of every model: a Python exception becomes [Err kind].  [bind] with its
    inversions; [mapM], a comprehension whose body may raise, with membership in its result, and
    when it succeeds and fails. *)
From Coq Require Import ZArith List.
Import ListNotations.

Inductive err :=
| EValue      (* ValueError (CRSMismatchError is a ValueError too) *)
| ECrs        (* CRSMismatchError *)
| EIndex      (* IndexError *)
| EAssert (line : Z)  (* AssertionError, tagged by a label of the source assert *)
| ERuntime    (* RuntimeError *)
| EIO         (* OSError family *)
| EOther.

Inductive res (A : Type) := Ok (a : A) | Err (e : err).
Arguments Ok {A} a.
Arguments Err {A} e.

Definition bind {A B} (r : res A) (f : A -> res B) : res B :=
  match r with Ok a => f a | Err e => Err e end.
Notation "x <- r ;; k" := (bind r (fun x => k)) (at level 61, r at next level, right associativity).
Notation "' pat <- r ;; k" := (bind r (fun x => let pat := x in k))
  (at level 61, pat pattern, r at next level, right associativity).

Definition guard (b : bool) (e : err) : res unit := if b then Ok tt else Err e.
Definition is_ok {A} (r : res A) : bool := match r with Ok _ => true | Err _ => false end.

Definition err_code (e : err) : Z :=
  match e with
  | EValue => 1 | ECrs => 2 | EIndex => 3 | EAssert _ => 4 | ERuntime => 5 | EIO => 6 | EOther => 7
  end.

Lemma bind_ok {A B} (r : res A) (f : A -> res B) b :
  bind r f = Ok b -> exists a, r = Ok a /\ f a = Ok b.
Proof. destruct r; simpl; intros H; [eauto | discriminate]. Qed.

Lemma bind_err {A B} (r : res A) (f : A -> res B) e :
  bind r f = Err e -> r = Err e \/ exists a, r = Ok a /\ f a = Err e.
Proof. destruct r as [a|e']; simpl; intros H; [eauto | injection H as ->; auto]. Qed.

(** [[f(a) for a in l]] where [f] may raise: the first exception wins *)
Fixpoint mapM {A B} (f : A -> res B) (l : list A) : res (list B) :=
  match l with
  | [] => Ok []
  | a :: l' => b <- f a ;; bs <- mapM f l' ;; Ok (b :: bs)
  end.

Lemma mapM_Forall2 {A B} (f : A -> res B) : forall l l',
  mapM f l = Ok l' -> Forall2 (fun a b => f a = Ok b) l l'.
Proof.
  induction l as [|x l IH]; intros l' H; simpl in H.
  - injection H as <-. constructor.
  - apply bind_ok in H as (a & Ha & H). apply bind_ok in H as (b & Hb & [= <-]).
    constructor; auto.
Qed.

Lemma mapM_In {A B} (f : A -> res B) l bs : mapM f l = Ok bs ->
  forall b, In b bs <-> exists a, In a l /\ f a = Ok b.
Proof.
  intros H%mapM_Forall2 b. induction H as [|x y l bs Hxy _ IH]; simpl.
  - split; [intros [] | intros (a & [] & _)].
  - rewrite IH. split.
    + intros [<- | (a & Ha & E)]; eauto.
    + intros (a & [<- | Ha] & E); [left; congruence | eauto].
Qed.

Lemma mapM_In_fwd {A B} (f : A -> res B) l bs a :
  mapM f l = Ok bs -> In a l -> exists b, In b bs /\ f a = Ok b.
Proof.
  intros H%mapM_Forall2. induction H as [|x y l bs Hxy _ IH]; [intros [] | intros [<- | Hin]].
  - exists y. simpl; auto.
  - destruct (IH Hin) as (b & Hb & E). exists b. simpl; auto.
Qed.

Lemma mapM_ok {A B} (f : A -> res B) l :
  (forall a, In a l -> exists b, f a = Ok b) -> exists bs, mapM f l = Ok bs.
Proof.
  induction l as [|a l IH]; intros H; simpl; [eauto|].
  destruct (H a (or_introl eq_refl)) as [b ->].
  destruct IH as [bs ->]; [intros x Hx; apply H; right; exact Hx|]. simpl. eauto.
Qed.

Lemma mapM_err {A B} (f : A -> res B) : forall l e,
  mapM f l = Err e -> exists x, In x l /\ f x = Err e.
Proof.
  induction l as [|x l IH]; intros e H; simpl in H; [discriminate|].
  apply bind_err in H as [Hx | (a & _ & H)]; [exists x; simpl; auto|].
  apply bind_err in H as [Hl | (b & _ & H)]; [|discriminate].
  destruct (IH _ Hl) as (y & Hy & Hf). exists y. simpl; auto.
Qed.
