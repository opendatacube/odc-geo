(** Results compared up to the error *kind* (an assertion's source label is not
    part of the behaviour the properties talk about). *)
From OG Require Import Base.Result.

Definition res_sim {A} (x y : res A) : Prop :=
  match x, y with
  | Ok a, Ok b => a = b
  | Err e1, Err e2 => err_code e1 = err_code e2
  | _, _ => False
  end.

Lemma res_sim_refl {A} (x : res A) : res_sim x x.
Proof. destruct x; simpl; reflexivity. Qed.

Lemma res_sim_eq {A} (x y : res A) : x = y -> res_sim x y.
Proof. intros ->; apply res_sim_refl. Qed.

Lemma res_sim_trans {A} (x y z : res A) : res_sim x y -> res_sim y z -> res_sim x z.
Proof. destruct x, y, z; simpl; intros; try contradiction; congruence. Qed.

Lemma res_sim_sym {A} (x y : res A) : res_sim x y -> res_sim y x.
Proof. destruct x, y; simpl; intros; try contradiction; congruence. Qed.

Lemma res_sim_bind {A B} (x y : res A) (f g : A -> res B) :
  res_sim x y -> (forall a, res_sim (f a) (g a)) -> res_sim (bind x f) (bind y g).
Proof. destruct x, y; simpl; intros H K; try contradiction; [subst; apply K | exact H]. Qed.

Lemma res_sim_ok {A} (x y : res A) a : res_sim x y -> (x = Ok a <-> y = Ok a).
Proof. destruct x, y; simpl; intros H; try contradiction; [subst; reflexivity | split; discriminate]. Qed.
