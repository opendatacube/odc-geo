(** Python [range(a, b)] ([zrange]), [range(n)] ([iota]) and [itertools.product] (first factor outer,
    [zproduct]) as lists: membership, no duplicates, and the elements of [iota] by position. *)
From Coq Require Import ZArith List Lia FinFun.
Import ListNotations.
Open Scope Z_scope.

Definition zrange (a b : Z) : list Z :=
  map (fun k => a + Z.of_nat k) (seq 0 (Z.to_nat (b - a))).

Lemma zrange_In a b i : In i (zrange a b) <-> (a <= i < b)%Z.
Proof.
  unfold zrange. rewrite in_map_iff. split.
  - intros (k & <- & Hk). apply in_seq in Hk. lia.
  - intros H. exists (Z.to_nat (i - a)). split; [lia|]. apply in_seq. lia.
Qed.

Lemma zrange_NoDup a b : NoDup (zrange a b).
Proof.
  unfold zrange. apply Injective_map_NoDup; [|apply seq_NoDup].
  intros x y H. lia.
Qed.

(** [range(n)].  Several models write this body out under a name of their own; the lemmas apply
    to those by conversion. *)
Definition iota (n : Z) : list Z := map Z.of_nat (seq 0 (Z.to_nat n)).

Lemma iota_zrange n : iota n = zrange 0 n.
Proof. unfold zrange. rewrite Z.sub_0_r. reflexivity. Qed.

Lemma In_iota n i : In i (iota n) <-> 0 <= i < n.
Proof. rewrite iota_zrange. apply zrange_In. Qed.

Lemma NoDup_iota n : NoDup (iota n).
Proof. rewrite iota_zrange. apply zrange_NoDup. Qed.

Lemma length_iota n : length (iota n) = Z.to_nat n.
Proof. unfold iota. rewrite map_length, seq_length. reflexivity. Qed.

Lemma iota_succ n : 0 <= n -> iota (n + 1) = iota n ++ [n].
Proof.
  intros H. unfold iota. replace (Z.to_nat (n + 1)) with (S (Z.to_nat n)) by lia.
  rewrite seq_S, map_app. cbn [map Nat.add]. rewrite Z2Nat.id by lia. reflexivity.
Qed.

Lemma nth_error_iota n i : (i < Z.to_nat n)%nat -> nth_error (iota n) i = Some (Z.of_nat i).
Proof.
  intros H. unfold iota. rewrite nth_error_map, (nth_error_nth' _ 0%nat) by (rewrite seq_length; exact H).
  rewrite seq_nth by exact H. reflexivity.
Qed.

(** [itertools.product(yy, xx)]: pairs [(y, x)], [y] outer *)
Definition zproduct (ys xs : list Z) : list (Z * Z) :=
  flat_map (fun y => map (fun x => (y, x)) xs) ys.

Lemma zproduct_In ys xs y x : In (y, x) (zproduct ys xs) <-> In y ys /\ In x xs.
Proof.
  unfold zproduct. rewrite in_flat_map. split.
  - intros (y' & Hy & H). apply in_map_iff in H. destruct H as (x' & E & Hx).
    inversion E; subst. auto.
  - intros [Hy Hx]. exists y. split; [exact Hy|]. apply in_map_iff. exists x. auto.
Qed.

(** the same product with the pairs written (x, y), as Model/GridSpec has it *)
Lemma product_In (xs ys : list Z) ix iy :
  In (ix, iy) (flat_map (fun iy => map (fun ix => (ix, iy)) xs) ys) <-> In ix xs /\ In iy ys.
Proof.
  rewrite in_flat_map. split.
  - intros (y & Hy & H). apply in_map_iff in H. destruct H as (x & E & Hx).
    inversion E; subst. auto.
  - intros [Hx Hy]. exists iy. split; [exact Hy|]. apply in_map_iff. exists ix. auto.
Qed.

Lemma NoDup_app_intro {A} (l1 l2 : list A) :
  NoDup l1 -> NoDup l2 -> (forall x, In x l1 -> In x l2 -> False) -> NoDup (l1 ++ l2).
Proof.
  induction l1 as [|a l1 IH]; simpl; intros H1 H2 H; [exact H2|].
  inversion H1 as [|? ? Ha Hl]; subst. constructor.
  - rewrite in_app_iff. intros [C|C]; [contradiction | eapply H; eauto].
  - apply IH; auto. intros x Hx1 Hx2. eapply H; eauto.
Qed.
