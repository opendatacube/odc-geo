(** Tile enumeration of the COG writer: mixed-radix arithmetic, the index grid of
    [np.ndindex], flat_tile_idx is a bijection, tidx / cog_tidx enumerate every tile
    exactly once, writer_order holds the same tiles with the overview levels first. *)
From Coq Require Import ZArith List Bool Lia Permutation.
From OG Require Import Base.Result Model.CogLayout Proofs.CogLayoutProofs.
From OG Require Base.ZRange.
Import ListNotations.
Open Scope Z_scope.

Lemma map_flat_map {A B C} (f : B -> C) (g : A -> list B) l :
  map f (flat_map g l) = flat_map (fun x => map f (g x)) l.
Proof.
  induction l as [|x l IH]; cbn [flat_map map]; [reflexivity|].
  now rewrite map_app, IH.
Qed.

Lemma flat_map_ext_in {A B} (f g : A -> list B) l :
  (forall x, In x l -> f x = g x) -> flat_map f l = flat_map g l.
Proof.
  induction l as [|x l IH]; cbn [flat_map]; intros H; [reflexivity|].
  rewrite H by (left; reflexivity). rewrite IH; [reflexivity|].
  intros y Hy. apply H. now right.
Qed.

Lemma concat_flat_map_map {A B C} (g : A -> B -> list C) (h : A -> list B) (l : list A) :
  concat (flat_map (fun a => map (g a) (h a)) l) = flat_map (fun a => flat_map (g a) (h a)) l.
Proof.
  induction l as [|a l IH]; simpl; [reflexivity|].
  rewrite concat_app, IH. f_equal. rewrite flat_map_concat_map. reflexivity.
Qed.

Lemma NoDup_map_in {A B} (f : A -> B) (l : list A) :
  (forall a b, In a l -> In b l -> f a = f b -> a = b) -> NoDup l -> NoDup (map f l).
Proof.
  induction l as [|a l IH]; intros Hinj Hnd; simpl; [constructor|].
  inversion Hnd; subst. constructor.
  - intros Hin. apply in_map_iff in Hin as (b & E & Hb).
    assert (b = a) by (apply Hinj; [right; auto | left; auto | auto]). subst. contradiction.
  - apply IH; auto. intros; apply Hinj; try right; auto.
Qed.

Lemma NoDup_flat_map {A B} (f : A -> list B) (l : list A) :
  NoDup l -> (forall a, In a l -> NoDup (f a)) ->
  (forall a b x, In a l -> In b l -> In x (f a) -> In x (f b) -> a = b) ->
  NoDup (flat_map f l).
Proof.
  induction l as [|a l IH]; intros Hnd Hf Hdisj; simpl; [constructor|].
  inversion Hnd as [|? ? Hnotin Hnd']; subst.
  apply ZRange.NoDup_app_intro.
  - apply Hf. left; reflexivity.
  - apply IH; auto.
    + intros; apply Hf; right; auto.
    + intros a' b x Ha Hb; apply Hdisj; right; auto.
  - intros x Hx Hx'. apply in_flat_map in Hx' as (b & Hb & Hxb).
    assert (a = b) by (apply (Hdisj a b x); [left; auto | right; auto | auto | auto]).
    subst. contradiction.
Qed.

Lemma radix_bound m n a b : 0 <= a < m -> 0 <= b < n -> 0 <= a * n + b < m * n.
Proof. intros Ha Hb. nia. Qed.

Lemma radix_div n a b : 0 <= b < n -> (a * n + b) / n = a.
Proof. intros Hb. symmetry. apply (Z.div_unique _ n a b); [left; exact Hb | ring]. Qed.

Lemma radix_mod n a b : 0 <= b < n -> (a * n + b) mod n = b.
Proof. intros Hb. symmetry. apply (Z.mod_unique _ n a b); [left; exact Hb | ring]. Qed.

Lemma radix_inj n a b a' b' :
  0 <= b < n -> 0 <= b' < n -> a * n + b = a' * n + b' -> a = a' /\ b = b'.
Proof. intros Hb Hb' E. apply (Z.div_mod_unique n); [left; exact Hb | left; exact Hb' | lia]. Qed.

Lemma radix_onto m n t : 0 < n -> 0 <= t < m * n ->
  0 <= t / n < m /\ 0 <= t mod n < n /\ t / n * n + t mod n = t.
Proof.
  intros Hn Ht. pose proof (Z.div_mod t n ltac:(lia)). pose proof (Z.mod_pos_bound t n Hn).
  split; [|lia]. split; [apply Z.div_pos; lia | apply Z.div_lt_upper_bound; lia].
Qed.

(** [CogLayout.zrange] is [Base/ZRange.iota] *)
Lemma in_zrange n z : In z (zrange n) <-> 0 <= z < n.
Proof. exact (ZRange.In_iota n z). Qed.

Lemma NoDup_zrange n : NoDup (zrange n).
Proof. exact (ZRange.NoDup_iota n). Qed.

(** [np.ndindex((ns, ny, nx))], plane by plane: what [tidx] lists for a [meta] and, mapped
    through [src_index], what [RioCog.readback_indices] lists for a band layout *)
Definition grid_plane (s ny nx : Z) : list (Z * Z * Z) :=
  flat_map (fun y => map (fun x => (s, y, x)) (zrange nx)) (zrange ny).

Definition grid3 (ns ny nx : Z) : list (Z * Z * Z) :=
  flat_map (fun s => grid_plane s ny nx) (zrange ns).

Lemma in_grid_plane s ny nx s' y x :
  In (s', y, x) (grid_plane s ny nx) <-> s' = s /\ 0 <= y < ny /\ 0 <= x < nx.
Proof.
  unfold grid_plane. rewrite in_flat_map. split.
  - intros (y0 & Hy & Hin). apply in_map_iff in Hin as (x0 & E & Hx). inversion E; subst.
    apply in_zrange in Hy, Hx. auto.
  - intros (-> & Hy & Hx). exists y. split; [apply in_zrange; auto|].
    apply in_map_iff. exists x. split; [reflexivity | apply in_zrange; auto].
Qed.

Lemma NoDup_grid_plane s ny nx : NoDup (grid_plane s ny nx).
Proof.
  apply NoDup_flat_map.
  - apply NoDup_zrange.
  - intros y _. apply FinFun.Injective_map_NoDup; [|apply NoDup_zrange].
    intros a b H; inversion H; auto.
  - intros a b x _ _ Ha Hb. apply in_map_iff in Ha as (? & <- & _). apply in_map_iff in Hb as (? & E & _).
    inversion E; auto.
Qed.

Lemma in_grid3 ns ny nx s y x :
  In (s, y, x) (grid3 ns ny nx) <-> 0 <= s < ns /\ 0 <= y < ny /\ 0 <= x < nx.
Proof.
  unfold grid3. rewrite in_flat_map. split.
  - intros (s0 & Hs & Hin). apply in_zrange in Hs. apply in_grid_plane in Hin as (-> & Hy & Hx). auto.
  - intros (Hs & Hy & Hx). exists s. split; [apply in_zrange; auto|]. apply in_grid_plane. auto.
Qed.

Lemma NoDup_grid3 ns ny nx : NoDup (grid3 ns ny nx).
Proof.
  apply NoDup_flat_map.
  - apply NoDup_zrange.
  - intros; apply NoDup_grid_plane.
  - intros a b [[s y] x] _ _ Ha Hb. apply in_grid_plane in Ha as (-> & _). apply in_grid_plane in Hb as (-> & _).
    reflexivity.
Qed.

Definition in_range (m : meta) (idx : Z * Z * Z) : Prop :=
  let '(s, y, x) := idx in
  0 <= s < num_planes m /\ 0 <= y < fst (chunked m) /\ 0 <= x < snd (chunked m).

Definition wf_meta (m : meta) : Prop :=
  1 <= fst (m_shape m) /\ 1 <= snd (m_shape m) /\ 0 < fst (m_tile m) /\ 0 < snd (m_tile m) /\
  1 <= m_nsamples m.

Lemma chunked_eq m :
  chunked m = (nblocks (fst (m_shape m)) (fst (m_tile m)), nblocks (snd (m_shape m)) (snd (m_tile m))).
Proof. unfold chunked. destruct (m_shape m), (m_tile m). reflexivity. Qed.

Lemma num_tiles_eq m : num_tiles m = num_planes m * fst (chunked m) * snd (chunked m).
Proof. unfold num_tiles. destruct (chunked m). reflexivity. Qed.

Lemma unflat_eq m t :
  unflat m t = (t / (fst (chunked m) * snd (chunked m)), (t / snd (chunked m)) mod fst (chunked m),
                t mod snd (chunked m)).
Proof. unfold unflat. destruct (chunked m). reflexivity. Qed.

Lemma tidx_plane_eq m s : tidx_plane m s = grid_plane s (fst (chunked m)) (snd (chunked m)).
Proof. unfold tidx_plane. destruct (chunked m). reflexivity. Qed.

Lemma tidx_eq m : tidx m = grid3 (num_planes m) (fst (chunked m)) (snd (chunked m)).
Proof. apply flat_map_ext, tidx_plane_eq. Qed.

Lemma chunked_pos m : wf_meta m -> 1 <= fst (chunked m) /\ 1 <= snd (chunked m) /\ 1 <= num_planes m.
Proof.
  intros (A & B & C & D & E). rewrite chunked_eq. cbn [fst snd].
  split; [apply nblocks_pos; assumption|]. split; [apply nblocks_pos; assumption|].
  unfold num_planes. destruct (m_axis m); lia.
Qed.

(** the index [flat_tile_idx] computes when it does not raise *)
Definition flat_idx (m : meta) (idx : Z * Z * Z) : Z :=
  let '(s, y, x) := idx in s * (fst (chunked m) * snd (chunked m)) + y * snd (chunked m) + x.

Lemma flat_tile_idx_cases m idx :
  in_range m idx /\ flat_tile_idx m idx = Ok (flat_idx m idx) \/
  ~ in_range m idx /\ flat_tile_idx m idx = Err EIndex.
Proof.
  destruct idx as [[s y] x]. unfold flat_tile_idx, in_range, flat_idx.
  destruct (chunked m) as [ny nx]. cbn [fst snd].
  destruct ((s <? 0) || (s >=? num_planes m)) eqn:E1;
    [right; split; [apply orb_true_iff in E1; lia | reflexivity]|].
  destruct ((y <? 0) || (y >=? ny)) eqn:E2;
    [right; split; [apply orb_true_iff in E2; lia | reflexivity]|].
  destruct ((x <? 0) || (x >=? nx)) eqn:E3;
    [right; split; [apply orb_true_iff in E3; lia | reflexivity]|].
  apply orb_false_iff in E1, E2, E3. left. split; [lia | reflexivity].
Qed.

Lemma flat_tile_idx_eq m idx : in_range m idx -> flat_tile_idx m idx = Ok (flat_idx m idx).
Proof.
  intros R. destruct (flat_tile_idx_cases m idx) as [[_ E] | [N _]]; [exact E | contradiction].
Qed.

Lemma flat_tile_idx_Ok m idx t :
  flat_tile_idx m idx = Ok t -> in_range m idx /\ t = flat_idx m idx.
Proof.
  intros E. destruct (flat_tile_idx_cases m idx) as [[R E'] | [_ E']]; rewrite E' in E; [|discriminate].
  injection E as <-. auto.
Qed.

Lemma flat_idx_bound m idx : in_range m idx -> 0 <= flat_idx m idx < num_tiles m.
Proof.
  destruct idx as [[s y] x]. intros (Hs & Hy & Hx). rewrite num_tiles_eq. cbn [flat_idx].
  rewrite <- Z.add_assoc, <- Z.mul_assoc. apply radix_bound; [exact Hs | apply radix_bound; assumption].
Qed.

Lemma unflat_flat m idx : in_range m idx -> unflat m (flat_idx m idx) = idx.
Proof.
  destruct idx as [[s y] x]. intros (Hs & Hy & Hx). rewrite unflat_eq. cbn [flat_idx].
  set (ny := fst (chunked m)) in *. set (nx := snd (chunked m)) in *.
  assert (E : s * (ny * nx) + y * nx + x = (s * ny + y) * nx + x) by ring.
  f_equal; [f_equal|].
  - rewrite <- Z.add_assoc. apply radix_div, radix_bound; assumption.
  - rewrite E, radix_div by exact Hx. apply radix_mod, Hy.
  - rewrite E. apply radix_mod, Hx.
Qed.

(* peel off the innermost digit of [t], then the next *)
Lemma flat_unflat m t :
  0 < fst (chunked m) -> 0 < snd (chunked m) -> 0 <= t < num_tiles m ->
  in_range m (unflat m t) /\ flat_idx m (unflat m t) = t.
Proof.
  rewrite num_tiles_eq, unflat_eq. set (ny := fst (chunked m)). set (nx := snd (chunked m)).
  intros Hy Hx Ht.
  destruct (radix_onto (num_planes m * ny) nx t Hx Ht) as (B1 & Bx & E1).
  destruct (radix_onto (num_planes m) ny (t / nx) Hy B1) as (Bs & By & E2).
  rewrite (Z.mul_comm ny nx), <- Z.div_div by lia. split; [red; auto|]. cbn [flat_idx]. fold ny nx.
  transitivity ((t / nx / ny * ny + (t / nx) mod ny) * nx + t mod nx); [ring | rewrite E2; exact E1].
Qed.

Lemma flat_tile_idx_inj m a b t :
  flat_tile_idx m a = Ok t -> flat_tile_idx m b = Ok t -> a = b.
Proof.
  intros Ha Hb. apply flat_tile_idx_Ok in Ha as (Ra & ->). apply flat_tile_idx_Ok in Hb as (Rb & E).
  rewrite <- (unflat_flat m a Ra), E. apply unflat_flat, Rb.
Qed.

Lemma in_tidx m idx : In idx (tidx m) <-> in_range m idx.
Proof. rewrite tidx_eq. destruct idx as [[s y] x]. apply in_grid3. Qed.

Lemma NoDup_tidx m : NoDup (tidx m).
Proof. rewrite tidx_eq. apply NoDup_grid3. Qed.

Definition valid_tile (mm : list meta) (t : Z * Z * Z * Z) : Prop :=
  let '(i, p, y, x) := t in
  0 <= i /\ exists m, nth_error mm (Z.to_nat i) = Some m /\ in_range m (p, y, x).

Lemma in_enum_from {A} (l : list A) : forall k i a,
  In (i, a) (enum_from k l) <-> k <= i /\ nth_error l (Z.to_nat (i - k)) = Some a.
Proof.
  induction l as [|b l IH]; intros k i a; simpl.
  - split; [tauto|]. intros (_ & H). destruct (Z.to_nat (i - k)); discriminate.
  - rewrite IH. split.
    + intros [E | (Hk & Hn)].
      * inversion E; subst. rewrite Z.sub_diag. simpl. split; [lia | reflexivity].
      * split; [lia|]. replace (Z.to_nat (i - k)) with (S (Z.to_nat (i - (k + 1)))) by lia. exact Hn.
    + intros (Hk & Hn). destruct (Z.eq_dec i k) as [->|Hne].
      * rewrite Z.sub_diag in Hn. simpl in Hn. inversion Hn; subst. left; reflexivity.
      * right. split; [lia|].
        replace (Z.to_nat (i - k)) with (S (Z.to_nat (i - (k + 1)))) in Hn by lia. exact Hn.
Qed.

Lemma in_enum_from_In {A} (l : list A) k i a : In (i, a) (enum_from k l) -> In a l.
Proof. intros H. apply in_enum_from in H as (_ & H). eapply nth_error_In; eauto. Qed.

Lemma NoDup_enum_from {A} (l : list A) : forall k, NoDup (map fst (enum_from k l)).
Proof.
  induction l as [|b l IH]; intros k; simpl; constructor; auto.
  intros Hin. apply in_map_iff in Hin as ([i a] & E & Hin). simpl in E; subst.
  apply in_enum_from in Hin. lia.
Qed.

Lemma in_tag_level i l t :
  In t (tag_level i l) <-> (let '(i', p, y, x) := t in i' = i /\ In (p, y, x) l).
Proof.
  unfold tag_level. rewrite in_map_iff. destruct t as [[[i' p] y] x]. split.
  - intros ([[p0 y0] x0] & E & Hin). inversion E; subst. auto.
  - intros (-> & Hin). exists (p, y, x). auto.
Qed.

Lemma NoDup_tag_level i l : NoDup l -> NoDup (tag_level i l).
Proof.
  intros H. unfold tag_level. apply FinFun.Injective_map_NoDup; auto.
  intros [[a b] c] [[a' b'] c'] E. inversion E; reflexivity.
Qed.

Lemma in_cog_tidx mm t : In t (cog_tidx mm) <-> valid_tile mm t.
Proof.
  unfold cog_tidx, valid_tile. rewrite in_flat_map. destruct t as [[[i p] y] x]. split.
  - intros ([i0 m] & Hin & Ht). apply in_rev in Hin. apply in_enum_from in Hin as (Hk & Hn).
    cbn [fst snd] in Ht. apply in_tag_level in Ht as (-> & Ht). apply in_tidx in Ht.
    rewrite Z.sub_0_r in Hn. split; [lia|]. exists m. auto.
  - intros (Hi & m & Hn & Hr). exists (i, m). split.
    + apply -> in_rev. apply in_enum_from. rewrite Z.sub_0_r. auto.
    + cbn [fst snd]. apply in_tag_level. split; [reflexivity | apply in_tidx; exact Hr].
Qed.

Lemma NoDup_cog_tidx mm : NoDup (cog_tidx mm).
Proof.
  unfold cog_tidx. apply NoDup_flat_map.
  - apply NoDup_rev. eapply NoDup_map_inv, NoDup_enum_from.
  - intros [i m] _. apply NoDup_tag_level, NoDup_tidx.
  - intros [i m] [i' m'] [[[j p] y] x] Ha Hb Hx Hx'. cbn [fst snd] in *.
    apply in_tag_level in Hx as (-> & _). apply in_tag_level in Hx' as (-> & _).
    apply in_rev in Ha, Hb. apply in_enum_from in Ha as (_ & Ea). apply in_enum_from in Hb as (_ & Eb).
    congruence.
Qed.

Lemma Permutation_concat_rev {A} (ll : list (list A)) : Permutation (concat (rev ll)) (concat ll).
Proof.
  induction ll as [|a ll IH]; simpl; [constructor|].
  rewrite concat_app. simpl. rewrite app_nil_r.
  eapply Permutation_trans; [apply Permutation_app_comm|]. apply Permutation_app_head. exact IH.
Qed.

Definition uniform_planes (mm : list meta) : Prop :=
  forall m0 m, hd_error mm = Some m0 -> In m mm -> num_planes m = num_planes m0.

(** the bags hold the tiles of [cog_tidx], level by level in the other order *)
Lemma concat_bags mm :
  uniform_planes mm ->
  concat (bags mm) = flat_map (fun im => tag_level (fst im) (tidx (snd im))) (enum_from 0 mm).
Proof.
  intros U. destruct mm as [|m0 mm']; [reflexivity|]. unfold bags. set (mm := m0 :: mm') in *.
  rewrite (concat_flat_map_map (fun im s => tag_level (fst im) (tidx_plane (snd im) s))).
  apply flat_map_ext_in. intros [i m] Hin. cbn [fst snd].
  rewrite <- (U m0 m eq_refl (in_enum_from_In _ _ _ _ Hin)).
  unfold tidx, tag_level. rewrite map_flat_map. reflexivity.
Qed.

Definition lvl (t : Z * Z * Z * Z) : Z := let '(i, _, _, _) := t in i.

Lemma Forall_lvl_tag (P : Z -> Prop) i l : P i -> Forall (fun t => P (lvl t)) (tag_level i l).
Proof. intros H. apply Forall_map, Forall_forall. intros [[p y] x] _. exact H. Qed.

Lemma writer_order_split mm :
  exists ovr full,
    writer_order mm = ovr ++ full /\
    (forall t, In t ovr -> 1 <= lvl t) /\ (forall t, In t full -> lvl t = 0).
Proof.
  destruct mm as [|m0 mm']; [exists [], []; simpl; repeat split; intros; contradiction|].
  unfold writer_order, bags. cbn [enum_from flat_map].
  set (f := fun im : Z * meta => map (fun s => tag_level (fst im) (tidx_plane (snd im) s)) (zrange (num_planes m0))).
  rewrite rev_app_distr, concat_app.
  exists (concat (rev (flat_map f (enum_from (0 + 1) mm')))), (concat (rev (f (0, m0)))).
  split; [reflexivity|]. split; apply Forall_forall, Forall_concat, Forall_rev.
  - apply Forall_flat_map, Forall_forall. intros [i m] Hin. apply in_enum_from in Hin as (Hi & _).
    apply Forall_map, Forall_forall. intros s _. apply Forall_lvl_tag. cbn [fst]. lia.
  - apply Forall_map, Forall_forall. intros s _. apply (Forall_lvl_tag (fun i => i = 0)). reflexivity.
Qed.

Lemma writer_order_levels mm n1 n2 t1 t2 :
  nth_error (writer_order mm) n1 = Some t1 -> nth_error (writer_order mm) n2 = Some t2 ->
  1 <= lvl t1 -> lvl t2 = 0 -> (n1 < n2)%nat.
Proof.
  destruct (writer_order_split mm) as (ovr & full & -> & Hovr & Hfull). intros T1 T2 L1 L2.
  destruct (Nat.lt_ge_cases n1 (length ovr)) as [H1 | H1].
  - destruct (Nat.lt_ge_cases n2 (length ovr)) as [H2 | H2]; [|lia].
    rewrite nth_error_app1 in T2 by exact H2. apply nth_error_In, Hovr in T2. lia.
  - rewrite nth_error_app2 in T1 by exact H1. apply nth_error_In, Hfull in T1. lia.
Qed.
