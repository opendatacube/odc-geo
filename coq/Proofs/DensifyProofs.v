(** Proofs for C07 about Model/Densify.v.  The length [L] of a segment is throughout a variable
    with [0 < L] and [L * L == sqdist p1 p2], never the result of a computation, so that the
    distances between points of the segment are rational ([sqdist_at]).  The loop [dloop] is
    followed through [chain (within r)]: consecutive points at most [r] apart.  Each of
    densify_segment, densify_pairs and densify is described once by what its result is (a
    refinement with small gaps, or the error and where it comes from: [densify_result]); the
    statements about successes, failures and totality are read off.  What densification keeps
    (order, end points, shoelace sum, length) is proved of [refines]; segmented and gmap go by
    [geom_ind'], the induction principle that reaches the parts of a [Multi]. *)
From Coq Require Import ZArith QArith Qround List Lia Lqa.
From OG Require Import Base.Result Base.QZ Base.QMinMax Model.Densify Model.DensifySpec.
Import ListNotations.
Open Scope Q_scope.

Lemma sq_le_of_le a r : 0 <= a -> a <= r -> a * a <= r * r.
Proof. intros. nra. Qed.

Lemma pos_of_sq_pos L r : 0 <= L -> 0 < r -> r * r <= L * L -> 0 < L.
Proof.
  intros HL Hr H. destruct (Qlt_le_dec L r) as [C|C]; [|lra].
  assert (L * L < r * r) by nra. lra.
Qed.

Lemma Forall2_impl_Forall {A B} (R S : A -> B -> Prop) l l' :
  Forall (fun a => forall b, R a b -> S a b) l -> Forall2 R l l' -> Forall2 S l l'.
Proof.
  intros H H2. induction H2 as [|a b l l' Hab _ IH]; constructor; inversion H; subst; auto.
Qed.

Lemma zsqrt_exact_spec n r : zsqrt_exact n = Some r -> (0 <= r /\ r * r = n)%Z.
Proof.
  unfold zsqrt_exact. destruct (Z.sqrt n * Z.sqrt n =? n)%Z eqn:E; intros [= <-].
  split; [apply Z.sqrt_nonneg | apply Z.eqb_eq; exact E].
Qed.

Lemma exact_sqrt_spec : sqrt_spec exact_sqrt.
Proof.
  intros x L. unfold exact_sqrt.
  destruct (zsqrt_exact (Qnum (Qred x))) as [a|] eqn:Ea; [|discriminate].
  destruct (zsqrt_exact (Zpos (Qden (Qred x)))) as [[|b|b]|] eqn:Eb; try discriminate.
  intros [= <-].
  destruct (zsqrt_exact_spec _ _ Ea) as [Ha Ea']. destruct (zsqrt_exact_spec _ _ Eb) as [Hb Eb'].
  exact (Qsqrt_red x a (Zpos b) Ha Hb Ea' Eb').
Qed.

Definition pt_eq (p q : pt) : Prop := fst p == fst q /\ snd p == snd q.

Lemma pt_eq_refl p : pt_eq p p.
Proof. split; reflexivity. Qed.

Lemma lerp_0 p1 p2 : pt_eq p1 (lerp p1 p2 0).
Proof. unfold pt_eq, lerp; simpl; split; ring. Qed.

Lemma lerp_1 p1 p2 : pt_eq p2 (lerp p1 p2 1).
Proof. unfold pt_eq, lerp; simpl; split; ring. Qed.

Lemma sqdist_wd a a' b b' : pt_eq a a' -> pt_eq b b' -> sqdist a b == sqdist a' b'.
Proof.
  intros [Ax Ay] [Bx By]. unfold sqdist, Qminus.
  apply Qplus_comp; apply Qmult_comp; apply Qplus_comp; try apply Qopp_comp; assumption.
Qed.

Lemma sqdist_on_line p1 p2 a b s t :
  pt_eq a (lerp p1 p2 s) -> pt_eq b (lerp p1 p2 t) ->
  sqdist a b == (t - s) * (t - s) * sqdist p1 p2.
Proof.
  intros Ha Hb. rewrite (sqdist_wd _ _ _ _ Ha Hb). unfold sqdist, lerp; simpl. ring.
Qed.

Lemma interpolate_0 p1 p2 L : pt_eq p1 (interpolate p1 p2 L 0).
Proof. unfold pt_eq, interpolate, lerp, Qdiv; simpl; split; ring. Qed.

Lemma interpolate_end p1 p2 L : 0 < L -> pt_eq p2 (interpolate p1 p2 L L).
Proof. intros HL. unfold pt_eq, interpolate, lerp; simpl; split; field; lra. Qed.

Lemma sqdist_at p1 p2 L x y a b :
  0 < L -> L * L == sqdist p1 p2 ->
  pt_eq x (interpolate p1 p2 L a) -> pt_eq y (interpolate p1 p2 L b) ->
  sqdist x y == (b - a) * (b - a).
Proof.
  intros HL H Hx Hy. rewrite (sqdist_on_line _ _ _ _ _ _ Hx Hy), <- H. field. lra.
Qed.

Fixpoint chain (R : pt -> pt -> Prop) (p : pt) (l : list pt) : Prop :=
  match l with
  | [] => True
  | q :: l' => R p q /\ chain R q l'
  end.

Lemma chain_snoc_app R p l q b :
  chain R p (l ++ [q]) -> chain R q b -> chain R p ((l ++ [q]) ++ b).
Proof.
  revert p. induction l as [|x l IH]; simpl; intros p [H1 H2] Hb; auto.
Qed.

Definition within (r : Q) (p q : pt) : Prop := sqdist p q <= r * r.

Lemma chain_max_gap r p l : chain (within r) p l -> max_gap r (p :: l).
Proof.
  revert p. induction l as [|q l IH]; intros p H [|i] a b Ha Hb.
  - discriminate.
  - destruct i; discriminate.
  - destruct H as [H _]. injection Ha as <-. injection Hb as <-. exact H.
  - destruct H as [_ H]. exact (IH q H i a b Ha Hb).
Qed.

Lemma dloop_S f p1 p2 L r d :
  dloop (S f) p1 p2 L r d =
  if Qltb d L
  then match dloop f p1 p2 L r (d + r) with
       | Some l => Some (interpolate p1 p2 L d :: l)
       | None => None
       end
  else Some [].
Proof. reflexivity. Qed.

Section Loop.
  Variables (p1 p2 : pt) (L r : Q).
  Hypothesis HL : 0 < L.
  Hypothesis Hr : 0 < r.
  Hypothesis Hroot : L * L == sqdist p1 p2.

  (** every gap of  prev :: inserted points ++ [p2]  is at most r, where [prev]
      is the point at arc length [a = d - r] *)
  Lemma dloop_gap fuel : forall d a prev mid,
    dloop fuel p1 p2 L r d = Some mid ->
    pt_eq prev (interpolate p1 p2 L a) -> a < L -> d == a + r ->
    chain (within r) prev (mid ++ [p2]).
  Proof using HL Hr Hroot.
    induction fuel as [|f IH]; intros d a prev mid H Hp Ha Hd; [discriminate|].
    rewrite dloop_S in H. destruct (Qltb d L) eqn:E.
    - destruct (dloop f p1 p2 L r (d + r)) as [l|] eqn:El; [|discriminate].
      injection H as <-. apply Qlt_bool_true in E. split.
      + unfold within. rewrite (sqdist_at p1 p2 L _ _ a d HL Hroot Hp (pt_eq_refl _)).
        apply sq_le_of_le; lra.
      + exact (IH (d + r) d _ l El (pt_eq_refl _) E (Qeq_refl _)).
    - injection H as <-. apply Qlt_bool_false in E. split; [|exact I].
      unfold within. rewrite (sqdist_at p1 p2 L _ _ a L HL Hroot Hp (interpolate_end p1 p2 L HL)).
      apply sq_le_of_le; lra.
  Qed.

  (** the lower bound [lo] is a variable: the rest of the loop, started at [d + r], is used
      with the parameter [d / L] just emitted as its bound, not with the caller's *)
  Lemma dloop_params fuel : forall d mid,
    dloop fuel p1 p2 L r d = Some mid ->
    exists ts, mid = map (lerp p1 p2) ts /\
               forall lo, lo < d / L -> lo < 1 -> increasing lo ts 1.
  Proof using HL Hr.
    induction fuel as [|f IH]; intros d mid H; [discriminate|].
    rewrite dloop_S in H. destruct (Qltb d L) eqn:E.
    - destruct (dloop f p1 p2 L r (d + r)) as [l|] eqn:El; [|discriminate].
      injection H as <-. apply Qlt_bool_true in E.
      destruct (IH _ _ El) as (ts & -> & Hts).
      exists (d / L :: ts). split; [reflexivity|].
      intros lo Hlo _. split; [exact Hlo|].
      apply Hts.
      + apply Qmult_lt_r; [apply Qinv_lt_0_compat; exact HL | lra].
      + apply Qlt_shift_div_r; lra.
    - injection H as <-. exists []. split; [reflexivity|]. intros lo _ Hlo. exact Hlo.
  Qed.

  Lemma dloop_spec fuel mid :
    dloop fuel p1 p2 L r r = Some mid ->
    chain (within r) p1 (mid ++ [p2]) /\
    exists ts, mid = map (lerp p1 p2) ts /\ increasing 0 ts 1.
  Proof using HL Hr Hroot.
    intros H. split.
    - apply (dloop_gap fuel r 0 p1 mid H (interpolate_0 p1 p2 L) HL). ring.
    - destruct (dloop_params fuel r mid H) as (ts & E & Hts).
      exists ts. split; [exact E|]. apply Hts; [apply Qlt_shift_div_l; lra | reflexivity].
  Qed.

  Lemma dloop_total_n (n : nat) : forall d,
    L <= d + inject_Z (Z.of_nat n) * r -> exists mid, dloop (S n) p1 p2 L r d = Some mid.
  Proof using.
    induction n as [|n IH]; intros d H; rewrite dloop_S; destruct (Qltb d L) eqn:E; eauto.
    - apply Qlt_bool_true in E. change (inject_Z (Z.of_nat 0)) with 0 in H. lra.
    - destruct (IH (d + r)) as [mid Hm]; [|rewrite Hm; eauto].
      rewrite Nat2Z.inj_succ in H. unfold Z.succ in H. rewrite inject_Z_plus in H.
      set (k := inject_Z (Z.of_nat n)) in *. change (inject_Z 1) with 1 in H. lra.
  Qed.

  Lemma dloop_total : exists mid, dloop (seg_fuel L r) p1 p2 L r r = Some mid.
  Proof using HL Hr.
    unfold seg_fuel. apply dloop_total_n.
    assert (H0 : 0 <= L / r) by (apply Qle_shift_div_l; lra).
    rewrite Z2Nat.id by (change 0%Z with (Qceiling 0); apply Qceiling_resp_le; exact H0).
    destruct (Qceiling_spec (L / r)) as (c & <- & _ & H2).
    apply (Qmult_le_compat_r _ _ r) in H2; [|lra].
    assert (E : L / r * r == L) by (field; lra). lra.
  Qed.
End Loop.

(** without the repair 0d98c78: for a resolution <= 0 the loop never finishes, whatever the fuel *)
Lemma dloop_diverges p1 p2 L r fuel : forall d,
  r <= 0 -> d < L -> dloop fuel p1 p2 L r d = None.
Proof.
  induction fuel as [|f IH]; intros d Hr Hd; [reflexivity|].
  rewrite dloop_S. destruct (Qltb d L) eqn:E.
  - rewrite IH; [reflexivity | exact Hr | lra].
  - apply Qlt_bool_false in E. lra.
Qed.

Lemma adjacent_head p q l : adjacent p q (p :: q :: l).
Proof. exists [], l. reflexivity. Qed.

Lemma adjacent_tail p q x l : adjacent p q l -> adjacent p q (x :: l).
Proof. intros (l1 & l2 & ->). exists (x :: l1), l2. reflexivity. Qed.

Lemma adjacent_inv p q x y l :
  adjacent p q (x :: y :: l) -> (p = x /\ q = y) \/ adjacent p q (y :: l).
Proof.
  intros ([|z l1] & l2 & E); simpl in E.
  - injection E as -> -> _. auto.
  - injection E as _ E. right. exists l1, l2. exact E.
Qed.

Lemma roots_exist_one sq p : roots_exist sq [p].
Proof. intros a b ([|x [|y l1]] & l2 & E); discriminate. Qed.

Lemma roots_exist_cons sq p q l :
  sq (sqdist p q) <> None -> roots_exist sq (q :: l) -> roots_exist sq (p :: q :: l).
Proof.
  intros H Hl a b Hab.
  destruct (adjacent_inv _ _ _ _ _ Hab) as [[-> ->]|Hab']; [exact H | exact (Hl a b Hab')].
Qed.

Section DensifyAny.
  Variable sq : Q -> option Q.
  Hypothesis Hsq : sqrt_spec sq.

  Lemma densify_segment_result r p1 p2 : 0 < r ->
    match densify_segment repaired sq (r * r) r p1 p2 with
    | Ok a => exists ts, a = map (lerp p1 p2) ts ++ [p2] /\ increasing 0 ts 1 /\
                         chain (within r) p1 a
    | Err e => e = EOther /\ r * r <= sqdist p1 p2 /\ sq (sqdist p1 p2) = None
    end.
  Proof.
    intros Hr. unfold densify_segment, short_enough. cbn [fx_sqdist repaired].
    destruct (Qltb (sqdist p1 p2) (r * r)) eqn:E.
    - apply Qlt_bool_true in E. exists []. simpl. unfold within. repeat split; lra.
    - apply Qlt_bool_false in E.
      destruct (sq (sqdist p1 p2)) as [L|] eqn:EL; [|auto].
      destruct (Hsq _ _ EL) as [HL0 Hroot].
      assert (HL : 0 < L) by (apply (pos_of_sq_pos L r HL0 Hr); rewrite Hroot; exact E).
      destruct (dloop_total p1 p2 L r HL Hr) as [mid Hm]. rewrite Hm.
      destruct (dloop_spec p1 p2 L r HL Hr Hroot _ _ Hm) as (Hch & ts & -> & Hts).
      exists ts. auto.
  Qed.

  Lemma densify_pairs_result r : 0 < r -> forall rest p1,
    match densify_pairs repaired sq (r * r) r p1 rest with
    | Ok tl => refines (p1 :: rest) (p1 :: tl) /\ chain (within r) p1 tl
    | Err e => e = EOther /\
               exists p q, adjacent p q (p1 :: rest) /\ r * r <= sqdist p q /\ sq (sqdist p q) = None
    end.
  Proof.
    intros Hr. induction rest as [|p2 rest IH]; intros p1; simpl.
    - split; constructor.
    - pose proof (densify_segment_result r p1 p2 Hr) as S. specialize (IH p2).
      destruct (densify_segment repaired sq (r * r) r p1 p2) as [a|e]; simpl.
      + destruct S as (ts & -> & Hts & Hch).
        destruct (densify_pairs repaired sq (r * r) r p2 rest) as [b|e]; simpl.
        * destruct IH as [Href Hchb]. split.
          -- rewrite <- app_assoc. apply refines_seg; assumption.
          -- apply chain_snoc_app; assumption.
        * destruct IH as (He & p & q & Hadj & H). split; [exact He|].
          exists p, q. split; [apply adjacent_tail; exact Hadj | exact H].
      + destruct S as [He H]. split; [exact He|].
        exists p1, p2. split; [apply adjacent_head | exact H].
  Qed.

  Theorem densify_result cs r :
    match densify_gen repaired sq cs r with
    | Ok out => 0 < r /\ refines cs out /\ max_gap r out
    | Err e =>
        (e = EValue /\ r <= 0) \/
        (e = EOther /\ 0 < r /\
         exists p q, adjacent p q cs /\ r * r <= sqdist p q /\ sq (sqdist p q) = None)
    end.
  Proof.
    unfold densify_gen. cbn [fx_posres fx_empty repaired andb].
    destruct (Qle_bool r 0) eqn:Er.
    - left. split; [reflexivity | apply Qle_bool_iff; exact Er].
    - apply Qle_bool_false in Er. destruct cs as [|p0 rest].
      + repeat split; [exact Er | constructor | intros [|i] p q Hp; discriminate].
      + pose proof (densify_pairs_result r Er rest p0) as S.
        destruct (densify_pairs repaired sq (r * r) r p0 rest) as [tl|e]; simpl.
        * destruct S as [Href Hch]. repeat split; [exact Er | exact Href | apply chain_max_gap; exact Hch].
        * destruct S as [He S]. right. auto.
  Qed.

  Corollary densify_spec cs r out :
    densify_gen repaired sq cs r = Ok out -> 0 < r /\ refines cs out /\ max_gap r out.
  Proof. intros H. pose proof (densify_result cs r) as S. rewrite H in S. exact S. Qed.

  Corollary densify_err_kind cs r e :
    densify_gen repaired sq cs r = Err e -> (e = EValue /\ r <= 0) \/ (e = EOther /\ 0 < r).
  Proof.
    intros H. pose proof (densify_result cs r) as S. rewrite H in S.
    destruct S as [S|(He & Hr & _)]; auto.
  Qed.

  Corollary densify_total cs r :
    0 < r -> roots_exist sq cs -> exists out, densify_gen repaired sq cs r = Ok out.
  Proof.
    intros Hr H. pose proof (densify_result cs r) as S.
    destruct (densify_gen repaired sq cs r) as [out|e]; [eauto|].
    destruct S as [[_ Hr']|(_ & _ & p & q & Hadj & _ & Hn)]; [lra | destruct (H p q Hadj Hn)].
  Qed.
End DensifyAny.

Lemma increasing_bounds lo ts hi : increasing lo ts hi ->
  lo < hi /\ forall t, In t ts -> lo < t /\ t < hi.
Proof.
  revert lo. induction ts as [|t0 ts IH]; simpl; intros lo H.
  - split; auto. intros t [].
  - destruct H as [H1 H2]. destruct (IH _ H2) as [H3 H4]. split; [lra|].
    intros t [->|Ht]; [split; lra|]. destruct (H4 _ Ht). split; lra.
Qed.

Lemma refines_refl l : refines l l.
Proof.
  induction l as [|p l IH]; [constructor|].
  destruct l as [|q l]; [constructor|].
  apply (refines_seg p q l [] (q :: l)); simpl; [lra | exact IH].
Qed.

Lemma refines_head p rest out : refines (p :: rest) out -> exists out', out = p :: out'.
Proof. intros H; inversion H; subst; eauto. Qed.

Lemma subseq_skip_app {A} (m l1 l2 : list A) : subseq l1 l2 -> subseq l1 (m ++ l2).
Proof. induction m; simpl; auto. intros; apply subseq_skip; auto. Qed.

Lemma refines_subseq cs out : refines cs out -> subseq cs out.
Proof.
  induction 1; try (repeat constructor).
  apply subseq_skip_app. assumption.
Qed.

Lemma refines_hd cs out : refines cs out -> hd_error out = hd_error cs.
Proof. induction 1; reflexivity. Qed.

Lemma last_app_cons {A} (m : list A) x l d : last (m ++ x :: l) d = last (x :: l) d.
Proof.
  induction m as [|y m IH]; [reflexivity|].
  rewrite <- IH. simpl. destruct (m ++ x :: l) eqn:E; [destruct m; discriminate | reflexivity].
Qed.

Lemma refines_last cs out d : refines cs out -> last out d = last cs d.
Proof.
  induction 1; try reflexivity.
  destruct (refines_head _ _ _ H0) as [out' ->].
  exact (eq_trans (last_app_cons (p1 :: map (lerp p1 p2) ts) p2 out' d) IHrefines).
Qed.

Lemma refines_length cs out : refines cs out -> (length cs <= length out)%nat.
Proof.
  induction 1; simpl; auto. rewrite app_length. simpl in IHrefines. lia.
Qed.

Lemma refines_points cs out : refines cs out ->
  forall x, In x out ->
    In x cs \/ exists p1 p2 t, adjacent p1 p2 cs /\ 0 < t /\ t < 1 /\ x = lerp p1 p2 t.
Proof.
  induction 1; intros x Hx.
  - destruct Hx.
  - left; exact Hx.
  - destruct Hx as [<-|Hx]; [left; left; reflexivity|].
    apply in_app_or in Hx. destruct Hx as [Hx|Hx].
    + right. apply in_map_iff in Hx. destruct Hx as (t & <- & Ht).
      destruct (increasing_bounds _ _ _ H) as [_ Hb]. destruct (Hb _ Ht).
      exists p1, p2, t. repeat split; auto. apply adjacent_head.
    + destruct (IHrefines _ Hx) as [Hi|(a & b & t & Hadj & H1 & H2 & ->)].
      * left; right; exact Hi.
      * right. exists a, b, t. repeat split; auto. apply adjacent_tail; exact Hadj.
Qed.

Definition cross (p q : pt) : Q := fst p * snd q - fst q * snd p.

Lemma shoelace2_cons2 p q l : shoelace2 (p :: q :: l) = cross p q + shoelace2 (q :: l).
Proof. reflexivity. Qed.

Lemma cross_wd a a' b b' : pt_eq a a' -> pt_eq b b' -> cross a b == cross a' b'.
Proof.
  intros [Ax Ay] [Bx By]. unfold cross, Qminus.
  apply Qplus_comp; try apply Qopp_comp; apply Qmult_comp; assumption.
Qed.

Lemma cross_on_line p1 p2 a b s t :
  pt_eq a (lerp p1 p2 s) -> pt_eq b (lerp p1 p2 t) -> cross a b == (t - s) * cross p1 p2.
Proof.
  intros Ha Hb. rewrite (cross_wd _ _ _ _ Ha Hb). unfold cross, lerp; simpl. ring.
Qed.

Lemma shoelace_insert p1 p2 tail : forall ts a s,
  pt_eq a (lerp p1 p2 s) ->
  shoelace2 (a :: map (lerp p1 p2) ts ++ p2 :: tail) == (1 - s) * cross p1 p2 + shoelace2 (p2 :: tail).
Proof.
  induction ts as [|t ts IH]; intros a s Ha; cbn [map app]; rewrite shoelace2_cons2.
  - rewrite (cross_on_line _ _ _ _ _ _ Ha (lerp_1 p1 p2)). reflexivity.
  - rewrite (cross_on_line _ _ _ _ _ _ Ha (pt_eq_refl _)), (IH _ t (pt_eq_refl _)). ring.
Qed.

Lemma refines_shoelace cs out : refines cs out -> shoelace2 out == shoelace2 cs.
Proof.
  induction 1; try reflexivity.
  destruct (refines_head _ _ _ H0) as [out' ->].
  rewrite (shoelace_insert p1 p2 out' ts p1 0 (lerp_0 p1 p2)), shoelace2_cons2, IHrefines. ring.
Qed.

Lemma seg_len_unique p q a b : seg_len p q a -> seg_len p q b -> a == b.
Proof.
  intros [Ha Ha2] [Hb Hb2]. apply root_unique; auto. rewrite Ha2, Hb2. reflexivity.
Qed.

Lemma path_len_unique l a b : path_len l a -> path_len l b -> a == b.
Proof.
  intros Ha. revert b.
  induction Ha as [| p | p q rest l0 m Hs Hp IH]; intros b Hb;
    inversion Hb as [| | ? ? ? l1 m1 Hs1 Hp1]; subst; try reflexivity.
  rewrite (seg_len_unique _ _ _ _ Hs Hs1), (IH _ Hp1). reflexivity.
Qed.

Lemma seg_len_piece p1 p2 l a b s t :
  seg_len p1 p2 l -> pt_eq a (lerp p1 p2 s) -> pt_eq b (lerp p1 p2 t) -> s <= t ->
  seg_len a b ((t - s) * l).
Proof.
  intros [Hl Hl2] Ha Hb Hst. split.
  - apply Qmult_le_0_compat; lra.
  - rewrite (sqdist_on_line _ _ _ _ _ _ Ha Hb), <- Hl2. ring.
Qed.

Lemma path_len_insert p1 p2 l tail m :
  seg_len p1 p2 l -> path_len (p2 :: tail) m ->
  forall ts a s, pt_eq a (lerp p1 p2 s) -> increasing s ts 1 ->
    exists X, path_len (a :: map (lerp p1 p2) ts ++ p2 :: tail) X /\ X == (1 - s) * l + m.
Proof.
  intros Hl Hm. induction ts as [|t ts IH]; intros a s Ha Hinc; cbn [map app].
  - exists ((1 - s) * l + m). split; [|reflexivity].
    apply pl_cons; [|exact Hm]. apply (seg_len_piece p1 p2 l a p2 s 1 Hl Ha (lerp_1 p1 p2)).
    apply Qlt_le_weak; exact Hinc.
  - destruct Hinc as [Hst Hinc].
    destruct (IH (lerp p1 p2 t) t (pt_eq_refl _) Hinc) as (X & HX & EX).
    exists ((t - s) * l + X). split; [|rewrite EX; ring].
    apply pl_cons; [|exact HX]. apply (seg_len_piece p1 p2 l a _ s t Hl Ha (pt_eq_refl _)).
    apply Qlt_le_weak; exact Hst.
Qed.

Lemma refines_path_len cs out : refines cs out ->
  forall Lc, path_len cs Lc -> exists Lo, path_len out Lo /\ Lo == Lc.
Proof.
  induction 1; intros Lc Hc.
  - exists Lc; split; [exact Hc | reflexivity].
  - exists Lc; split; [exact Hc | reflexivity].
  - inversion Hc as [| | ? ? ? l m Hseg Hrest]; subst.
    destruct (IHrefines _ Hrest) as (mo & Hmo & Emo).
    destruct (refines_head _ _ _ H0) as [out' ->].
    destruct (path_len_insert p1 p2 l out' mo Hseg Hmo ts p1 0 (lerp_0 p1 p2) H) as (X & HX & EX).
    exists X. split; [exact HX|]. rewrite EX, Emo. ring.
Qed.

Lemma refines_paths_len ps ps' : Forall2 refines ps ps' ->
  forall L, paths_len ps L -> exists L', paths_len ps' L' /\ L' == L.
Proof.
  induction 1; intros L HL; inversion HL as [| ? ? a b Hpa Hpb]; subst.
  - exists 0; split; [constructor | reflexivity].
  - destruct (refines_path_len _ _ H _ Hpa) as (a' & Ha & Ea).
    destruct (IHForall2 _ Hpb) as (b' & Hb & Eb).
    exists (a' + b'). split; [constructor; auto|]. rewrite Ea, Eb. reflexivity.
Qed.

Lemma path_length_cons2 sq p q l :
  path_length sq (p :: q :: l) =
  match sq (sqdist p q), path_length sq (q :: l) with
  | Some a, Some b => Some (a + b)
  | _, _ => None
  end.
Proof. reflexivity. Qed.

Lemma path_length_sound sq : sqrt_spec sq -> forall l L, path_length sq l = Some L -> path_len l L.
Proof.
  intros Hsq. induction l as [|p l IH]; intros L H.
  - inversion H; constructor.
  - destruct l as [|q l].
    + inversion H; constructor.
    + rewrite path_length_cons2 in H.
      destruct (sq (sqdist p q)) as [a|] eqn:Ea; [|discriminate].
      destruct (path_length sq (q :: l)) as [b|] eqn:Eb; [|discriminate].
      inversion H; subst L. apply pl_cons; [apply Hsq; exact Ea | apply IH; reflexivity].
Qed.

Section GeomInd.
  Variable P : geom -> Prop.
  Hypothesis HPt : forall p, P (Point p).
  Hypothesis HMP : forall ps, P (MultiPoint ps).
  Hypothesis HLn : forall cs, P (Line cs).
  Hypothesis HRg : forall cs, P (Ring cs).
  Hypothesis HPoly : forall e hs, P (Polygon e hs).
  Hypothesis HMulti : forall k ps, Forall P ps -> P (Multi k ps).

  Fixpoint geom_ind' (g : geom) : P g :=
    match g with
    | Point p => HPt p
    | MultiPoint ps => HMP ps
    | Line cs => HLn cs
    | Ring cs => HRg cs
    | Polygon e hs => HPoly e hs
    | Multi k ps =>
        HMulti k ps ((fix go (l : list geom) : Forall P l :=
                        match l with
                        | [] => Forall_nil P
                        | x :: l' => Forall_cons x (geom_ind' x) (go l')
                        end) ps)
    end.
End GeomInd.

(* the model's [mapM] is written with an inner [fix] so that [segmented_gen] may recurse through it *)
Lemma mapM_eq {A B} (f : A -> res B) l : mapM f l = Result.mapM f l.
Proof. induction l as [|a l IH]; [|cbn [mapM Result.mapM]; rewrite <- IH]; reflexivity. Qed.

Lemma mapM_Forall2 {A B} (f : A -> res B) l l' :
  mapM f l = Ok l' -> Forall2 (fun a b => f a = Ok b) l l'.
Proof. rewrite mapM_eq. apply Result.mapM_Forall2. Qed.

Lemma mapM_err {A B} (f : A -> res B) l e :
  mapM f l = Err e -> exists x, In x l /\ f x = Err e.
Proof. rewrite mapM_eq. apply Result.mapM_err. Qed.

Lemma Forall2_refines_singles ps :
  Forall2 refines (map (fun p : pt => [p]) ps) (map (fun p : pt => [p]) ps).
Proof. induction ps; simpl; constructor; auto. constructor. Qed.

Lemma Forall_max_gap_singles r ps : Forall (max_gap r) (map (fun p : pt => [p]) ps).
Proof. induction ps as [|p ps IH]; simpl; constructor; [exact (chain_max_gap r p [] I) | exact IH]. Qed.

Lemma qsum_app a b : qsum (a ++ b) == qsum a + qsum b.
Proof. induction a; simpl; [ring|]. rewrite IHa. ring. Qed.

Section SegmentedAny.
  Variable sq : Q -> option Q.
  Hypothesis Hsq : sqrt_spec sq.
  Variable r : Q.

  Definition seg_post (g g' : geom) : Prop :=
    kind_skeleton g' = kind_skeleton g /\
    Forall2 refines (paths g) (paths g') /\
    Forall (max_gap r) (paths g') /\
    geom_area g' == geom_area g.

  Lemma ring_post a b :
    densify_gen repaired sq a r = Ok b -> refines a b /\ max_gap r b /\ ring_area b == ring_area a.
  Proof.
    intros H. destruct (densify_spec sq Hsq _ _ _ H) as (_ & Href & Hgap).
    repeat split; [exact Href | exact Hgap |].
    unfold ring_area. rewrite (refines_shoelace _ _ Href). reflexivity.
  Qed.

  Lemma holes_post hs hs' :
    Forall2 (fun a b => densify_gen repaired sq a r = Ok b) hs hs' ->
    map (fun _ : list pt => O) hs' = map (fun _ : list pt => O) hs /\
    Forall2 refines hs hs' /\ Forall (max_gap r) hs' /\
    qsum (map ring_area hs') == qsum (map ring_area hs).
  Proof.
    induction 1 as [|a b hs hs' Hab _ (I1 & I2 & I3 & I4)]; simpl.
    - repeat split; constructor.
    - destruct (ring_post _ _ Hab) as (Href & Hgap & Ha).
      repeat split; try constructor; auto.
      + f_equal; exact I1.
      + rewrite I4, Ha. reflexivity.
  Qed.

  Lemma parts_post ps ps' :
    Forall2 seg_post ps ps' ->
    map kind_skeleton ps' = map kind_skeleton ps /\
    Forall2 refines (concat (map paths ps)) (concat (map paths ps')) /\
    Forall (max_gap r) (concat (map paths ps')) /\
    qsum (map geom_area ps') == qsum (map geom_area ps).
  Proof.
    induction 1 as [|a b ps ps' (H1 & H2 & H3 & H4) _ (I1 & I2 & I3 & I4)]; simpl.
    - repeat split; constructor.
    - repeat split.
      + f_equal; assumption.
      + apply Forall2_app; assumption.
      + apply Forall_app; split; assumption.
      + rewrite H4, I4. reflexivity.
  Qed.

  Theorem segmented_spec : forall g g',
    segmented_gen repaired sq r g = Ok g' -> seg_post g g'.
  Proof.
    induction g as [p|ps|cs|cs|e hs|k ps IH] using geom_ind'; intros g' H; cbn [segmented_gen] in H.
    3-4: apply bind_ok in H; destruct H as (c & Hc & [= <-]);
      destruct (ring_post _ _ Hc) as (Href & Hgap & _);
      repeat split; repeat constructor; assumption.
    - injection H as <-.
      repeat split; [apply (Forall2_refines_singles [p]) | apply (Forall_max_gap_singles r [p])].
    - injection H as <-.
      repeat split; [apply Forall2_refines_singles | apply Forall_max_gap_singles].
    - apply bind_ok in H. destruct H as (e' & He & H).
      apply bind_ok in H. destruct H as (hs' & Hh & [= <-]).
      destruct (ring_post _ _ He) as (Href & Hgap & Ha).
      destruct (holes_post _ _ (mapM_Forall2 _ _ _ Hh)) as (I1 & I2 & I3 & I4).
      repeat split; simpl.
      + f_equal; exact I1.
      + constructor; assumption.
      + constructor; assumption.
      + rewrite I4, Ha. reflexivity.
    - apply bind_ok in H. destruct H as (ps' & Hp & [= <-]).
      destruct (parts_post ps ps') as (I1 & I2 & I3 & I4).
      { exact (Forall2_impl_Forall _ _ _ _ IH (mapM_Forall2 _ _ _ Hp)). }
      repeat split; auto. simpl. f_equal; exact I1.
  Qed.

  Lemma segmented_err_path : forall g e,
    segmented_gen repaired sq r g = Err e ->
    exists cs, In cs (paths g) /\ densify_gen repaired sq cs r = Err e.
  Proof.
    induction g as [p|ps|cs|cs|e0 hs|k ps IH] using geom_ind'; intros e H; cbn [segmented_gen] in H;
      try discriminate.
    1-2: apply bind_err in H; destruct H as [E|(c & _ & H)]; [|discriminate];
      exists cs; split; [left; reflexivity | exact E].
    - apply bind_err in H. destruct H as [E|(c & _ & H)].
      + exists e0. split; [left; reflexivity | exact E].
      + apply bind_err in H. destruct H as [Eh|(hs' & _ & H)]; [|discriminate].
        destruct (mapM_err _ _ _ Eh) as (x & Hin & Hx).
        exists x. split; [right; exact Hin | exact Hx].
    - apply bind_err in H. destruct H as [Em|(ps' & _ & H)]; [|discriminate].
      destruct (mapM_err _ _ _ Em) as (x & Hin & Hx).
      rewrite Forall_forall in IH. destruct (IH x Hin e Hx) as (cs & Hcs & Hc).
      exists cs. split; [|exact Hc]. simpl. apply in_concat.
      exists (paths x). split; [apply in_map; exact Hin | exact Hcs].
  Qed.
End SegmentedAny.

Lemma gmap_skeleton f : forall g, skeleton (gmap f g) = skeleton g.
Proof.
  induction g as [p|ps|cs|cs|e hs|k ps IH] using geom_ind'; simpl; try reflexivity;
    try (rewrite map_length; reflexivity).
  - rewrite map_length. f_equal. rewrite map_map. apply map_ext. intros; apply map_length.
  - f_equal. rewrite map_map. apply map_ext_Forall. exact IH.
Qed.

Lemma gmap_vertices f : forall g, vertices (gmap f g) = map f (vertices g).
Proof.
  induction g as [p|ps|cs|cs|e hs|k ps IH] using geom_ind'; simpl; try reflexivity.
  - rewrite map_app. f_equal. rewrite concat_map. reflexivity.
  - rewrite concat_map. f_equal. rewrite !map_map. apply map_ext_Forall. exact IH.
Qed.

Lemma gmap_paths f : forall g, paths (gmap f g) = map (map f) (paths g).
Proof.
  induction g as [p|ps|cs|cs|e hs|k ps IH] using geom_ind'; simpl; try reflexivity.
  - rewrite !map_map. reflexivity.
  - rewrite concat_map. f_equal. rewrite !map_map. apply map_ext_Forall. exact IH.
Qed.

Lemma gmap_id : forall g, gmap (fun p => p) g = g.
Proof.
  induction g as [p|ps|cs|cs|e hs|k ps IH] using geom_ind'; simpl; try reflexivity;
    try (rewrite map_id; reflexivity).
  - rewrite map_id. f_equal. rewrite <- (map_id hs) at 2. apply map_ext. intros; apply map_id.
  - f_equal. rewrite <- (map_id ps) at 2. apply map_ext_Forall. exact IH.
Qed.

Section ToCrsProofs.
  Variable crs : Type.
  Variable crs_eqb : crs -> crs -> bool.
  Variable geographic : crs -> bool.
  Variable proj : crs -> crs -> pt -> pt.
  Variable is_valid : geom -> bool.
  Variable repair chop_antimeridian clip_lon180 : geom -> geom.
  Variable sq : Q -> option Q.

  Let to_crs := to_crs_gen crs crs_eqb geographic proj is_valid repair chop_antimeridian clip_lon180
                           repaired sq.

  Theorem to_crs_none_target self g rs w cf : to_crs self g None rs w cf = Err EValue.
  Proof. reflexivity. Qed.

  Theorem to_crs_no_crs c g rs w cf : to_crs None g (Some c) rs w cf = Err EValue.
  Proof. reflexivity. Qed.

  (** the flags at their defaults, or without effect *)
  Definition plain (w cf : bool) (c : crs) (projected : geom) : Prop :=
    w && geographic c = false /\ (negb cf || is_valid projected = true).

  Theorem to_crs_faithful self g target rs g' c' :
    to_crs self g target rs false false = Ok (Fresh g' c') ->
    exists s, self = Some s /\ target = Some c' /\ crs_eqb s c' = false /\
      exists g1, g' = gmap (proj s c') g1 /\
                 (g1 = g \/ exists r, 0 < r /\ segmented_gen repaired sq r g = Ok g1).
  Proof.
    unfold to_crs, to_crs_gen. destruct target as [c|]; [|discriminate].
    destruct self as [s|]; [|discriminate].
    destruct (crs_eqb s c) eqn:E; [discriminate|].
    intros H. apply bind_ok in H. destruct H as (rs' & Hrs & H).
    apply bind_ok in H. destruct H as (g1 & Hg1 & H). simpl in H. inversion H; subst g' c'; clear H.
    exists s. repeat split; auto. exists g1. split; [reflexivity|].
    destruct rs' as [| |r|]; try (inversion Hg1; subst; left; reflexivity).
    cbn [fx_autopos repaired negb orb] in Hg1.
    destruct (Qltb 0 r) eqn:Er.
    - right. exists r. split; [apply Qlt_bool_true; exact Er | exact Hg1].
    - inversion Hg1; subst; left; reflexivity.
  Qed.
End ToCrsProofs.
