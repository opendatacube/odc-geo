(** align_up_pow2 / align_down_pow2, which are [2 ^ Z.log2_up x] and
    [2 ^ Z.log2 x]; Bin1D, where [bin1d_bin b x = i] exactly when [x] lies in
    the half-open interval [bin1d_getitem b i]; data_resolution_and_offset /
    affine_from_axis on regularly spaced labels. *)
From Coq Require Import ZArith QArith Qround List Lia Lqa.
From OG Require Import Base.Result Base.QZ Base.QMinMax Model.MathH Proofs.MathHBasics.
Import ListNotations.
Open Scope Q_scope.

Section Pow2.
Open Scope Z_scope.

Lemma bit_length_pos n : 0 < n -> bit_length n = Z.succ (Z.log2 n).
Proof.
  intros H. unfold bit_length. rewrite (proj2 (Z.eqb_neq n 0)), Z.abs_eq by lia. reflexivity.
Qed.

Lemma align_up_pow2_eq x : 1 <= x -> align_up_pow2 x = 2 ^ Z.log2_up x.
Proof.
  intros H. unfold align_up_pow2. rewrite (proj2 (Z.leb_gt x 0)) by lia.
  destruct (Z.eq_dec x 1) as [->|N]; [reflexivity|].
  rewrite bit_length_pos, Z.shiftl_mul_pow2, Z.log2_up_eqn by (pose proof (Z.log2_nonneg (x - 1)); lia).
  apply Z.mul_1_l.
Qed.

Lemma align_down_pow2_eq x : 1 <= x -> align_down_pow2 x = 2 ^ Z.log2 x.
Proof.
  intros H. unfold align_down_pow2. rewrite align_up_pow2_eq by exact H.
  pose proof (Z.log2_nonneg x) as P. pose proof (Z.le_log2_up_succ_log2 x) as U.
  destruct (Z.gtb_spec (2 ^ Z.log2_up x) x) as [G|G].
  - (* not a power of two: the upper logarithm is one more than the lower *)
    apply Z.log2_lt_pow2 in G; [|lia]. replace (Z.log2_up x) with (Z.succ (Z.log2 x)) by lia.
    rewrite Z.pow_succ_r, Z.mul_comm, Z.div_mul by lia. reflexivity.
  - assert (E : x = 2 ^ Z.log2_up x) by (pose proof (proj2 (Z.log2_up_le_pow2 x _ ltac:(lia)) (Z.le_refl _)); lia).
    rewrite E at 2. rewrite Z.log2_pow2 by apply Z.log2_up_nonneg. reflexivity.
Qed.

Lemma align_up_pow2_spec x : 1 <= x ->
  exists k, 0 <= k /\ align_up_pow2 x = 2 ^ k /\ x <= 2 ^ k /\
            (0 < k -> 2 ^ (k - 1) < x) /\
            (forall j, 0 <= j -> x <= 2 ^ j -> 2 ^ k <= 2 ^ j).
Proof.
  intros H. exists (Z.log2_up x). split; [apply Z.log2_up_nonneg|]. split; [apply align_up_pow2_eq, H|].
  split; [apply Z.log2_up_le_pow2; lia|]. split; [intros _; apply Z.log2_up_lt_pow2; lia|].
  intros j Hj Hx. apply Z.pow_le_mono_r; [lia|]. apply Z.log2_up_le_pow2; [lia | exact Hx].
Qed.

Lemma align_up_pow2_nonpos x : x <= 0 -> align_up_pow2 x = 1.
Proof. intros H. unfold align_up_pow2. apply Z.leb_le in H. rewrite H. reflexivity. Qed.

Lemma align_down_pow2_spec x : 1 <= x ->
  exists k, 0 <= k /\ align_down_pow2 x = 2 ^ k /\ 2 ^ k <= x /\ x < 2 ^ (k + 1) /\
            (forall j, 0 <= j -> 2 ^ j <= x -> 2 ^ j <= 2 ^ k).
Proof.
  intros H. exists (Z.log2 x). split; [apply Z.log2_nonneg|]. split; [apply align_down_pow2_eq, H|].
  split; [apply Z.log2_spec; lia|]. split; [apply Z.log2_spec; lia|].
  intros j Hj Hx. apply Z.pow_le_mono_r; [lia|]. apply Z.log2_le_pow2; [lia | exact Hx].
Qed.

End Pow2.

Definition bin_ok (b : bin1d) : Prop := 0 < bsz b /\ (bdir b = 1%Z \/ bdir b = (-1)%Z).

Lemma bin1d_new_ok sz origin dir : 0 < sz -> (dir = 1%Z \/ dir = (-1)%Z) ->
  bin1d_new sz origin dir = Ok (mkBin sz origin dir).
Proof.
  intros Hs Hd. unfold bin1d_new. rewrite (proj2 (Qltb_true 0 sz) Hs). destruct Hd as [-> | ->]; reflexivity.
Qed.

Lemma bin1d_new_inv sz origin dir b : bin1d_new sz origin dir = Ok b ->
  b = mkBin sz origin dir /\ bin_ok b.
Proof.
  unfold bin1d_new. destruct (negb ((dir =? -1)%Z || (dir =? 1)%Z)) eqn:E1; [discriminate|].
  destruct (Qltb_spec 0 sz) as [E2|E2]; [|discriminate]. simpl. intros H. injection H as <-.
  split; [reflexivity|]. split; [exact E2|]. simpl.
  apply negb_false_iff, orb_true_iff in E1. destruct E1 as [E|E]; apply Z.eqb_eq in E; auto.
Qed.

Lemma div_between x o sz (i : Q) : 0 < sz ->
  (i <= (x - o) / sz /\ (x - o) / sz < i + 1) <-> (i * sz + o <= x /\ x < i * sz + o + sz).
Proof.
  intros Hs. rewrite Qdiv_ge_iff, Qdiv_lt_iff by exact Hs. split; intros [H1 H2]; split; lra.
Qed.

Lemma bin1d_bin_iff b x i : bin_ok b ->
  bin1d_bin b x = i <-> fst (bin1d_getitem b i) <= x /\ x < snd (bin1d_getitem b i).
Proof.
  intros [Hs Hd]. unfold bin1d_bin, bin1d_getitem. cbn [fst snd].
  destruct Hd as [-> | ->].
  - rewrite Z.mul_1_l. rewrite Qfloor_eq_iff. rewrite (div_between x (borigin b) (bsz b) (inject_Z i) Hs).
    change (inject_Z 1) with 1.
    split; intros [H1 H2]; split; lra.
  - assert (E : (-1 * Qfloor ((x - borigin b) / bsz b))%Z = i <-> Qfloor ((x - borigin b) / bsz b) = (- i)%Z) by lia.
    rewrite E. rewrite Qfloor_eq_iff. rewrite (div_between x (borigin b) (bsz b) (inject_Z (- i)) Hs).
    rewrite inject_Z_opp. change (inject_Z (-1)) with (-(1)).
    split; intros [H1 H2]; split; lra.
Qed.

Lemma bin1d_adjacent b i : bin_ok b ->
  snd (bin1d_getitem b i) == fst (bin1d_getitem b (i + bdir b)).
Proof.
  intros [Hs Hd]. unfold bin1d_getitem. cbn [fst snd]. rewrite inject_Z_plus.
  destruct Hd as [-> | ->].
  - change (inject_Z 1) with 1. ring.
  - change (inject_Z (-1)) with (-(1)). ring.
Qed.

Lemma bin1d_width b i : snd (bin1d_getitem b i) - fst (bin1d_getitem b i) == bsz b.
Proof. unfold bin1d_getitem. cbn [fst snd]. ring. Qed.

Lemma bin1d_from_sample_bin_spec idx x0 x1 dir : x0 < x1 -> (dir = 1%Z \/ dir = (-1)%Z) ->
  exists b, bin1d_from_sample_bin idx (x0, x1) dir = Ok b /\ bin_ok b /\ bdir b = dir /\
            bsz b == x1 - x0 /\
            fst (bin1d_getitem b idx) == x0 /\ snd (bin1d_getitem b idx) == x1 /\
            (forall x, bin1d_bin b x = idx <-> x0 <= x /\ x < x1).
Proof.
  intros Hx Hd. unfold bin1d_from_sample_bin.
  rewrite (proj2 (Qltb_true x0 x1) Hx). cbn [negb].
  assert (Hs : 0 < x1 - x0) by lra.
  rewrite (bin1d_new_ok _ _ _ Hs Hd). eexists. split; [reflexivity|].
  set (B := mkBin (x1 - x0) (x0 - (x1 - x0) * inject_Z idx * inject_Z dir) dir).
  assert (Ok' : bin_ok B) by (split; assumption).
  assert (G0 : fst (bin1d_getitem B idx) == x0) by (unfold bin1d_getitem, B; cbn [fst snd bsz borigin bdir]; ring).
  assert (G1 : snd (bin1d_getitem B idx) == x1) by (unfold bin1d_getitem, B; cbn [fst snd bsz borigin bdir]; ring).
  split; [exact Ok'|]. split; [reflexivity|]. split; [reflexivity|]. split; [exact G0|]. split; [exact G1|].
  intros x. rewrite (bin1d_bin_iff _ x idx Ok'), G0, G1. tauto.
Qed.

Lemma bin1d_from_sample_bin_roundtrip b i : bin_ok b ->
  exists b', bin1d_from_sample_bin i (bin1d_getitem b i) (bdir b) = Ok b' /\
             bsz b' == bsz b /\ borigin b' == borigin b /\ bdir b' = bdir b.
Proof.
  intros [Hs Hd].
  pose proof (dir_sq _ Hd) as D2.
  unfold bin1d_from_sample_bin, bin1d_getitem.
  set (_x := inject_Z i * bsz b * inject_Z (bdir b) + borigin b).
  rewrite (proj2 (Qltb_true _x (_x + bsz b))) by lra. cbn [negb].
  assert (Hs' : 0 < _x + bsz b - _x) by lra.
  rewrite (bin1d_new_ok _ _ _ Hs' Hd). eexists. split; [reflexivity|]. cbn [bsz borigin bdir].
  split; [ring|]. split; [|reflexivity].
  unfold _x. ring.
Qed.

Lemma bin1d_from_sample_bin_err idx x0 x1 dir : x1 <= x0 ->
  bin1d_from_sample_bin idx (x0, x1) dir = Err (EAssert 633).
Proof.
  intros H. unfold bin1d_from_sample_bin. rewrite (proj2 (Qltb_false x0 x1) H). reflexivity.
Qed.

Definition regular (data : list Q) (c0 r : Q) : Prop :=
  forall i, (i < length data)%nat -> nth i data 0 == c0 + inject_Z (Z.of_nat i) * r.

Definition axis_ok (data : list Q) (fb : option Q) (r : Q) : Prop :=
  (2 <= length data)%nat \/ (length data = 1%nat /\ exists f, fb = Some f /\ f == r).

Lemma data_res_regular data fb c0 r :
  regular data c0 r -> axis_ok data fb r ->
  exists rs off, data_resolution_and_offset data fb = Ok (rs, off) /\ rs == r /\ off == c0 - (1#2) * r.
Proof.
  intros Hreg Hn. unfold data_resolution_and_offset.
  assert (H0 : nth 0 data 0 == c0).
  { rewrite (Hreg 0%nat) by (destruct Hn as [?|[? _]]; lia). simpl. ring. }
  destruct Hn as [Hn | (Hn & f & -> & Ef)].
  - rewrite (proj2 (Z.ltb_ge _ _)) by lia. simpl. eexists. eexists. split; [reflexivity|].
    assert (Hl : nth (length data - 1) data 0 == c0 + (inject_Z (Z.of_nat (length data)) - 1) * r).
    { rewrite (Hreg (length data - 1)%nat) by lia.
      rewrite Nat2Z.inj_sub by lia. rewrite inject_Z_sub. simpl. ring. }
    assert (Hn' : 2 <= inject_Z (Z.of_nat (length data))).
    { assert (X : (2 <= Z.of_nat (length data))%Z) by lia. rewrite Zle_Qle in X. exact X. }
    assert (R : (nth (length data - 1) data 0 - nth 0 data 0) / (inject_Z (Z.of_nat (length data)) - 1) == r).
    { rewrite Hl, H0. field. lra. }
    split; [exact R|]. rewrite R, H0. reflexivity.
  - rewrite Hn. simpl. eexists. eexists. split; [reflexivity|].
    split; [exact Ef|]. rewrite H0, Ef. reflexivity.
Qed.

Lemma data_res_empty fb : data_resolution_and_offset [] fb = Err EValue.
Proof. reflexivity. Qed.

Lemma data_res_single_nofallback v : data_resolution_and_offset [v] None = Err EValue.
Proof. reflexivity. Qed.

Lemma affine_from_axis_spec xx yy fb cx rx cy ry :
  regular xx cx rx -> regular yy cy ry ->
  axis_ok xx (option_map (fun f => fst (res_xy f)) fb) rx ->
  axis_ok yy (option_map (fun f => snd (res_xy f)) fb) ry ->
  exists A, affine_from_axis xx yy fb = Ok A /\
            aff_eq A (mkAff rx 0 (cx - (1#2) * rx) 0 ry (cy - (1#2) * ry)) /\
            forall i j, (i < length xx)%nat -> (j < length yy)%nat ->
              fst (aff_apply A (inject_Z (Z.of_nat i) + (1#2), inject_Z (Z.of_nat j) + (1#2))) == nth i xx 0 /\
              snd (aff_apply A (inject_Z (Z.of_nat i) + (1#2), inject_Z (Z.of_nat j) + (1#2))) == nth j yy 0.
Proof.
  intros Rx Ry Ax Ay. unfold affine_from_axis.
  destruct (data_res_regular xx _ cx rx Rx Ax) as (xr & xo & Ex & Exr & Exo).
  destruct (data_res_regular yy _ cy ry Ry Ay) as (yr & yo & Ey & Eyr & Eyo).
  exists (aff_mul (aff_translation xo yo) (aff_scale xr yr)). split; [|split].
  - destruct fb as [f|]; cbn [option_map] in Ex, Ey; cbv iota beta; rewrite Ex; cbn [bind]; rewrite Ey; reflexivity.
  - unfold aff_eq, aff_mul, aff_translation, aff_scale. cbn [aa ab ac ad ae af]. repeat split; lra.
  - intros i j Hi Hj. unfold aff_apply, aff_mul, aff_translation, aff_scale. cbn [fst snd aa ab ac ad ae af].
    rewrite (Rx i Hi), (Ry j Hj), <- Exr, <- Eyr. split; lra.
Qed.
