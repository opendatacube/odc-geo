(** Proofs for Model/ValueObjs.v: for every value type, [==] is an equivalence,
    equal objects have equal hash keys (on a class of CRS instances with
    unique spelling), equal tokens imply [==], unpickled clones are [==] with
    the same token.  The CRS laws assumed here are derived from the oracle
    contracts at the end of the file. *)
From Coq Require Import QArith Qabs List.
From OG Require Import Base.Eqb Model.CrsCache Model.ValueObjs Proofs.CrsCacheProofs Proofs.CrsHistoryProofs.
Import ListNotations.
Open Scope Z_scope.

Lemma Qeq_bool_red a b : Qeq_bool a b = true <-> Qred a = Qred b.
Proof.
  rewrite Qeq_bool_iff. split; intros H.
  - apply Qred_complete; auto.
  - rewrite <- (Qred_correct a), <- (Qred_correct b). rewrite H. reflexivity.
Qed.

Lemma num_eqb_spec a b : num_eqb a b = true <-> num_key a = num_key b.
Proof. apply Qeq_bool_red. Qed.

Lemma list_eqb_key {A K} (e : A -> A -> bool) (k : A -> K) :
  (forall a b, e a b = true <-> k a = k b) ->
  forall l l', list_eqb e l l' = true <-> map k l = map k l'.
Proof.
  intros H. induction l as [|a r IH]; destruct l' as [|b r']; simpl; split; intros X; try discriminate; auto.
  - apply andb_true_iff in X. destruct X as (X1 & X2). f_equal; [apply H; auto | apply IH; auto].
  - inversion X. apply andb_true_iff. split; [apply H; auto | apply IH; auto].
Qed.

Lemma qlist_eqb_spec l l' : qlist_eqb l l' = true <-> map Qred l = map Qred l'.
Proof. apply list_eqb_key. apply Qeq_bool_red. Qed.

Lemma aff_eqb_spec A B : aff_eqb A B = true <-> map Qred (aff_list A) = map Qred (aff_list B).
Proof. apply qlist_eqb_spec. Qed.

Lemma zz_eqb_spec a b : zz_eqb a b = true <-> a = b.
Proof.
  destruct a as (a1 & a2), b as (b1 & b2). unfold zz_eqb; simpl. rewrite andb_true_iff, !Z.eqb_eq.
  split; [intros (-> & ->); auto | intros H; inversion H; auto].
Qed.

Lemma zlist_eqb_spec l l' : list_eqb Z.eqb l l' = true <-> l = l'.
Proof.
  rewrite (list_eqb_key Z.eqb (fun x => x)); [rewrite !map_id; tauto|]. intros; apply Z.eqb_eq.
Qed.

Lemma num_tok_key a b : num_tok a = num_tok b -> num_key a = num_key b.
Proof.
  destruct a as [x|x], b as [y|y]; simpl; intros H; inversion H; subst; auto.
Qed.

Lemma map_eq_map {A B C} (f : A -> B) (g : A -> C) :
  (forall a b, f a = f b -> g a = g b) -> forall l l', map f l = map f l' -> map g l = map g l'.
Proof.
  intros H. induction l as [|a r IH]; destruct l' as [|b r']; simpl; intros X; try discriminate; auto.
  inversion X. f_equal; auto.
Qed.

Lemma aff_atoms_inj A B : aff_atoms A = aff_atoms B -> map Qred (aff_list A) = map Qred (aff_list B).
Proof. apply map_eq_map. intros a b H; inversion H; auto. Qed.

Lemma aff_atoms_of_key A B : map Qred (aff_list A) = map Qred (aff_list B) -> aff_atoms A = aff_atoms B.
Proof. unfold aff_atoms. rewrite <- !(map_map Qred AFlt). intros ->. reflexivity. Qed.

Lemma aff_atoms_length A : length (aff_atoms A) = 6%nat.
Proof. destruct A as (((((a & b) & c) & d) & e) & f). reflexivity. Qed.

Lemma app_inj_len {A} (a b c d : list A) : length a = length c -> a ++ b = c ++ d -> a = c /\ b = d.
Proof.
  revert c. induction a as [|x a IH]; destruct c as [|y c]; simpl; intros L H; try discriminate; auto.
  inversion H as [[Hx Hr]]; subst. inversion L as [Hl]. destruct (IH c Hl Hr) as (-> & ->). auto.
Qed.

Lemma key_equiv {A Kt} (key : A -> Kt) : Equivalence (fun a b => key a = key b).
Proof. split; congruence. Qed.

Lemma eqb_key_equiv {A Kt} (eqb : A -> A -> bool) (key : A -> Kt) :
  (forall a b, eqb a b = true <-> key a = key b) ->
  (forall a, eqb a a = true) /\ (forall a b, eqb a b = true -> eqb b a = true) /\
  (forall a b c, eqb a b = true -> eqb b c = true -> eqb a c = true).
Proof.
  intros S. split; [|split].
  - intros a. apply S. reflexivity.
  - intros a b H. apply S. symmetry. apply S, H.
  - intros a b c H1 H2. apply S. apply S in H1, H2. congruence.
Qed.

Section Laws.
  Variable W : oracle.
  Variable D : crsv -> Prop.
  Variable reload : crsv -> crsv.
  Hypothesis L : crs_laws W D reload.

  Notation ocrs_eqb := (ocrs_eqb W).

  Definition oD (o : option crsv) : Prop := match o with Some c => D c | None => True end.

  Lemma ocrs_sym a b : oD a -> oD b -> ocrs_eqb a b = true -> ocrs_eqb b a = true.
  Proof. destruct a, b; simpl; auto. apply (cl_sym _ _ _ L). Qed.
  Lemma ocrs_trans a b c : oD a -> oD b -> oD c -> ocrs_eqb a b = true -> ocrs_eqb b c = true -> ocrs_eqb a c = true.
  Proof. destruct a, b, c; simpl; auto; try discriminate. apply (cl_trans _ _ _ L). Qed.
  Lemma ocrs_tok a b : oD a -> oD b -> ocrs_str a = ocrs_str b -> ocrs_eqb a b = true.
  Proof. destruct a, b; simpl; auto; try discriminate. intros Da Db H. inversion H. apply (cl_tok _ _ _ L); auto. Qed.
  Lemma oD_reload a : oD a -> oD (ocrs_reload reload a).
  Proof. destruct a; simpl; auto. apply (cl_reload_D _ _ _ L). Qed.
  Lemma ocrs_reload_str a : oD a -> ocrs_str (ocrs_reload reload a) = ocrs_str a.
  Proof. destruct a; simpl; auto. intros Da. f_equal. apply (cl_reload_str _ _ _ L); auto. Qed.

  Lemma ocrs_hash (Dh : crsv -> Prop) a b :
    hash_dom W Dh -> match a with Some c => Dh c | None => True end -> match b with Some c => Dh c | None => True end ->
    ocrs_eqb a b = true -> ocrs_str a = ocrs_str b.
  Proof. intros H. destruct a, b; simpl; auto; try discriminate. intros Da Db E. f_equal. apply H; auto. Qed.

  (** the scheme every type with a CRS component follows: [eqb a b <-> R a b /\ crs a == crs b] for an
      equivalence [R]; the token determines [R] and the string form of the CRS; unpickling reloads the CRS
      and keeps the token *)
  Section Typ.
    Variable A : Type.
    Variable eqb : A -> A -> bool.
    Variable R : A -> A -> Prop.
    Variable crs : A -> option crsv.
    Hypothesis R_equiv : Equivalence R.
    Hypothesis spec : forall a b, eqb a b = true <-> (R a b /\ ocrs_eqb (crs a) (crs b) = true).
    Variable token : A -> list atom.
    Hypothesis tinj : forall a b, token a = token b -> R a b /\ ocrs_str (crs a) = ocrs_str (crs b).
    Variable pk : A -> A.
    Hypothesis pk_crs : forall a, crs (pk a) = ocrs_reload reload (crs a).
    Hypothesis pk_tok : forall a, oD (crs a) -> token (pk a) = token a.

    Theorem typ_laws :
      (forall a, oD (crs a) -> eqb a a = true) /\
      (forall a b, oD (crs a) -> oD (crs b) -> eqb a b = true -> eqb b a = true) /\
      (forall a b c, oD (crs a) -> oD (crs b) -> oD (crs c) -> eqb a b = true -> eqb b c = true -> eqb a c = true) /\
      (forall a b, oD (crs a) -> oD (crs b) -> token a = token b -> eqb a b = true) /\
      (forall a, oD (crs a) -> oD (crs (pk a)) /\ eqb (pk a) a = true /\ eqb a (pk a) = true /\ token (pk a) = token a).
    Proof.
      assert (Tok : forall a b, oD (crs a) -> oD (crs b) -> token a = token b -> eqb a b = true).
      { intros a b Ha Hb H. apply tinj in H. destruct H as (H1 & H2). apply spec. split; auto. apply ocrs_tok; auto. }
      split; [|split; [|split; [|split; [exact Tok|]]]].
      - intros a Ha. apply Tok; auto.
      - intros a b Ha Hb H. apply spec in H. destruct H as (H1 & H2).
        apply spec. split; [symmetry; auto | apply ocrs_sym; auto].
      - intros a b c Ha Hb Hc H1 H2. apply spec in H1, H2. destruct H1 as (A1 & B1), H2 as (A2 & B2).
        apply spec. split; [etransitivity; eauto | apply (ocrs_trans (crs a) (crs b) (crs c)); auto].
      - (* the clone has the token of the original, so the two are [==] by the previous law *)
        intros a Ha. assert (Hp : oD (crs (pk a))) by (rewrite pk_crs; apply oD_reload; auto).
        pose proof (pk_tok a Ha) as T. repeat split; auto.
    Qed.

    Variable hashkey : A -> list atom.
    Hypothesis hfact : forall a b, R a b -> ocrs_str (crs a) = ocrs_str (crs b) -> hashkey a = hashkey b.
    Lemma typ_hash (Dh : crsv -> Prop) a b :
      hash_dom W Dh -> match crs a with Some c => Dh c | None => True end -> match crs b with Some c => Dh c | None => True end ->
      eqb a b = true -> hashkey a = hashkey b.
    Proof. intros H Da Db E. apply spec in E. destruct E as (E1 & E2). apply hfact; auto. eapply ocrs_hash; eauto. Qed.
  End Typ.

  Definition bbox_key (a : bbox) := map num_key (bb_box a).
  Lemma bbox_spec a b : bbox_eqb W a b = true <-> (bbox_key a = bbox_key b /\ ocrs_eqb (bb_crs a) (bb_crs b) = true).
  Proof.
    unfold bbox_eqb, bbox_key. rewrite andb_true_iff, (list_eqb_key num_eqb num_key num_eqb_spec). tauto.
  Qed.
  Lemma bbox_hfact a b : bbox_key a = bbox_key b -> ocrs_str (bb_crs a) = ocrs_str (bb_crs b) -> bbox_hashkey a = bbox_hashkey b.
  Proof. unfold bbox_key, bbox_hashkey. intros H ->. f_equal. rewrite <- !(map_map num_key AFlt). rewrite H. reflexivity. Qed.
  Lemma bbox_tinj a b : bbox_token a = bbox_token b -> bbox_key a = bbox_key b /\ ocrs_str (bb_crs a) = ocrs_str (bb_crs b).
  Proof.
    unfold bbox_token, bbox_key. intros H. inversion H as [[H1 H2]]. split; auto.
    revert H2. apply map_eq_map. intros x y E. inversion E. apply num_tok_key; auto.
  Qed.

  Definition bbox_ok (a : bbox) := oD (bb_crs a).
  Lemma bbox_pickle_token a : bbox_ok a -> bbox_token (bbox_pickle reload a) = bbox_token a.
  Proof. intros Ha. unfold bbox_token, bbox_pickle; simpl. rewrite ocrs_reload_str; auto. Qed.

  Definition geobox_key (a : geobox) := (gb_shape a, map Qred (aff_list (gb_aff a))).
  Lemma geobox_spec a b : geobox_eqb W a b = true <-> (geobox_key a = geobox_key b /\ ocrs_eqb (gb_crs a) (gb_crs b) = true).
  Proof. unfold geobox_eqb, geobox_key. rewrite !andb_true_iff, zz_eqb_spec, aff_eqb_spec, pair_equal_spec. tauto. Qed.
  Lemma geobox_hfact a b : geobox_key a = geobox_key b -> ocrs_str (gb_crs a) = ocrs_str (gb_crs b) -> geobox_hashkey a = geobox_hashkey b.
  Proof. unfold geobox_hashkey. intros H ->. inversion H as [[H1 H2]]. rewrite (aff_atoms_of_key _ _ H2). reflexivity. Qed.
  Lemma geobox_tinj a b : geobox_token a = geobox_token b -> geobox_key a = geobox_key b /\ ocrs_str (gb_crs a) = ocrs_str (gb_crs b).
  Proof.
    unfold geobox_token, geobox_key. intros H. inversion H as [[H1 H2 H3 H4]]. split; auto. f_equal.
    - destruct (gb_shape a), (gb_shape b); simpl in *; congruence.
    - apply aff_atoms_inj; auto.
  Qed.

  Definition geobox_ok (a : geobox) := oD (gb_crs a).
  Lemma geobox_pickle_token a : geobox_ok a -> geobox_token (geobox_pickle reload a) = geobox_token a.
  Proof. intros Ha. unfold geobox_token, geobox_pickle; simpl. rewrite ocrs_reload_str; auto. Qed.

  Definition gcpbox_key (a : gcpbox) :=
    (gc_shape a, map Qred (aff_list (gc_aff a)), map Qred (gm_pix (gc_map a)), map Qred (gm_wld (gc_map a))).
  Definition gcpbox_crs (a : gcpbox) := gm_crs (gc_map a).
  Lemma gcpbox_spec a b : gcpbox_eqb W a b = true <-> (gcpbox_key a = gcpbox_key b /\ ocrs_eqb (gcpbox_crs a) (gcpbox_crs b) = true).
  Proof.
    unfold gcpbox_eqb, gcpmap_eqb, gcpbox_key, gcpbox_crs.
    rewrite !andb_true_iff, zz_eqb_spec, aff_eqb_spec, !qlist_eqb_spec, !pair_equal_spec. tauto.
  Qed.
  Lemma gcpbox_hfact a b : gcpbox_key a = gcpbox_key b -> ocrs_str (gcpbox_crs a) = ocrs_str (gcpbox_crs b) -> gcpbox_hashkey a = gcpbox_hashkey b.
  Proof.
    unfold gcpbox_hashkey, gcpmap_hashkey, gcpbox_crs. intros H E. inversion H as [[H1 H2 H3 H4]].
    rewrite (aff_atoms_of_key _ _ H2), E. do 4 f_equal.
    rewrite <- !(map_map Qred AFlt), !map_app, H3, H4. reflexivity.
  Qed.
  Lemma gcpbox_tinj a b : gcpbox_token a = gcpbox_token b -> gcpbox_key a = gcpbox_key b /\ ocrs_str (gcpbox_crs a) = ocrs_str (gcpbox_crs b).
  Proof.
    unfold gcpbox_token, gcpmap_token, gcpbox_key, gcpbox_crs. simpl. intros H.
    inversion H as [[H1 H2 H3 H4 H5 H6 H7 H8]]. split; auto. rewrite !pair_equal_spec. repeat split; auto.
    - destruct (gc_shape a), (gc_shape b); simpl in *; congruence.
    - apply aff_atoms_inj; auto.
  Qed.

  Definition gcpbox_ok (a : gcpbox) := oD (gcpbox_crs a).
  Lemma gcpbox_pickle_token a : gcpbox_ok a -> gcpbox_token (gcpbox_pickle reload a) = gcpbox_token a.
  Proof.
    intros Ha. unfold gcpbox_token, gcpmap_token, gcpbox_pickle, gcpmap_pickle; simpl. rewrite ocrs_reload_str; auto.
  Qed.

  (** shapely equality is an oracle *)
  Section Geom.
    Variable G : Type.
    Variable geq : G -> G -> bool.
    Variable gjson : G -> Z.
    Variable gload : Z -> G.
    Hypothesis GL : geom_laws geq gjson gload.

    Definition geom_R (a b : geometry G) : Prop := geq (g_geom G a) (g_geom G b) = true.
    Lemma geom_R_equiv : Equivalence geom_R.
    Proof.
      split; [intros a | intros a b | intros a b c]; [apply (gl_refl _ _ _ GL) | apply (gl_sym _ _ _ GL) | apply (gl_trans _ _ _ GL)].
    Qed.
    Lemma geom_spec a b : geom_eqb W G geq a b = true <-> (geom_R a b /\ ocrs_eqb (g_crs G a) (g_crs G b) = true).
    Proof. unfold geom_eqb, geom_R. rewrite andb_true_iff. tauto. Qed.
    Lemma geom_tinj a b : geom_token G gjson a = geom_token G gjson b -> geom_R a b /\ ocrs_str (g_crs G a) = ocrs_str (g_crs G b).
    Proof.
      unfold geom_token, geom_R. intros H. inversion H as [[H1 H2]]. split; auto.
      eapply (gl_trans _ _ _ GL); [apply (gl_sym _ _ _ GL), (gl_load _ _ _ GL)|].
      rewrite H1. apply (gl_load _ _ _ GL).
    Qed.

    Definition geom_ok (a : geometry G) := oD (g_crs G a).
    Lemma geom_pickle_token a :
      geom_ok a -> geom_token G gjson (geom_pickle reload G gjson gload a) = geom_token G gjson a.
    Proof. intros Ha. unfold geom_token, geom_pickle; simpl. rewrite ocrs_reload_str, (gl_json _ _ _ GL); auto. Qed.
  End Geom.

  Definition anybox_crs (a : anybox) : option crsv := match a with BGeo g => gb_crs g | BGcp g => gcpbox_crs g end.
  Definition anybox_key (a : anybox) := match a with BGeo g => inl (geobox_key g) | BGcp g => inr (gcpbox_key g) end.

  Lemma tiles_eqb_spec a b : tiles_eqb a b = true <-> a = b.
  Proof.
    unfold tiles_eqb. rewrite andb_true_iff, !zz_eqb_spec. destruct a, b; simpl.
    split; [intros (-> & ->); auto | intros H; inversion H; auto].
  Qed.
  Lemma vtiles_eqb_spec a b : vtiles_eqb a b = true <-> a = b.
  Proof.
    unfold vtiles_eqb. rewrite andb_true_iff, !zlist_eqb_spec. destruct a, b; simpl.
    split; [intros (-> & ->); auto | intros H; inversion H; auto].
  Qed.
  Lemma anytiles_spec a b : anytiles_eqb a b = true <-> a = b.
  Proof.
    destruct a as [x|x], b as [y|y]; simpl; try (split; discriminate).
    - rewrite tiles_eqb_spec. split; congruence.
    - rewrite vtiles_eqb_spec. split; congruence.
  Qed.
  Lemma anybox_spec a b : anybox_eqb W a b = true <-> (anybox_key a = anybox_key b /\ ocrs_eqb (anybox_crs a) (anybox_crs b) = true).
  Proof.
    destruct a as [x|x], b as [y|y]; simpl; try (split; [discriminate | intros (E & _); discriminate E]).
    - rewrite geobox_spec. split; intros (E & H); split; congruence.
    - rewrite gcpbox_spec. split; intros (E & H); split; congruence.
  Qed.

  Definition gbtiles_key (a : gbtiles) := (gt_tiles a, anybox_key (gt_box a)).
  Definition gbtiles_crs (a : gbtiles) := anybox_crs (gt_box a).
  Lemma gbtiles_spec a b : gbtiles_eqb W a b = true <-> (gbtiles_key a = gbtiles_key b /\ ocrs_eqb (gbtiles_crs a) (gbtiles_crs b) = true).
  Proof.
    unfold gbtiles_eqb, gbtiles_key, gbtiles_crs. rewrite andb_true_iff, anytiles_spec, anybox_spec, pair_equal_spec. tauto.
  Qed.

  Lemma geobox_token_length g : length (geobox_token g) = 9%nat.
  Proof. unfold geobox_token. simpl. rewrite aff_atoms_length. reflexivity. Qed.
  Lemma gcpbox_token_length g : length (gcpbox_token g) = 11%nat.
  Proof. unfold gcpbox_token, gcpmap_token. simpl. rewrite aff_atoms_length. reflexivity. Qed.

  Lemma tiles_token_inj a b : tiles_token a = tiles_token b -> a = b.
  Proof.
    destruct a as [[a1 a2] [a3 a4]], b as [[b1 b2] [b3 b4]]. unfold tiles_token; simpl. intros H; inversion H; reflexivity.
  Qed.
  Lemma vtiles_token_inj a b : vtiles_token a = vtiles_token b -> a = b.
  Proof. destruct a, b. unfold vtiles_token; simpl. intros H; inversion H; reflexivity. Qed.
  Lemma anytiles_token_inj a b : anytiles_token a = anytiles_token b -> a = b.
  Proof.
    destruct a, b; simpl; intros H; try discriminate H; f_equal; [apply tiles_token_inj | apply vtiles_token_inj]; exact H.
  Qed.

  (** the sub-tokens are concatenated without tags: they are told apart by their lengths and first atoms *)
  Lemma gbtiles_tinj a b : gbtiles_token a = gbtiles_token b -> gbtiles_key a = gbtiles_key b /\ ocrs_str (gbtiles_crs a) = ocrs_str (gbtiles_crs b).
  Proof.
    unfold gbtiles_token, gbtiles_key, gbtiles_crs.
    destruct a as [ba ta], b as [bb tb]; cbn [gt_box gt_tiles].
    destruct ba as [ga|ga], bb as [gb|gb]; cbn [anybox_token anybox_crs anybox_key]; intros H.
    - apply app_inj_len in H; [|rewrite !geobox_token_length; reflexivity]. destruct H as (H1 & H2).
      apply geobox_tinj in H1. destruct H1 as (-> & H3). apply anytiles_token_inj in H2. subst tb. auto.
    - exfalso. unfold geobox_token, gcpbox_token, gcpmap_token in H. simpl in H. inversion H.
    - exfalso. unfold geobox_token, gcpbox_token, gcpmap_token in H. simpl in H. inversion H.
    - apply app_inj_len in H; [|rewrite !gcpbox_token_length; reflexivity]. destruct H as (H1 & H2).
      apply gcpbox_tinj in H1. destruct H1 as (-> & H3). apply anytiles_token_inj in H2. subst tb. auto.
  Qed.

  Definition gbtiles_ok (a : gbtiles) := oD (gbtiles_crs a).
  Lemma gbtiles_pickle_crs a : gbtiles_crs (gbtiles_pickle reload a) = ocrs_reload reload (gbtiles_crs a).
  Proof. unfold gbtiles_crs; simpl. destruct (gt_box a); reflexivity. Qed.
  Lemma gbtiles_pickle_token a : gbtiles_ok a -> gbtiles_token (gbtiles_pickle reload a) = gbtiles_token a.
  Proof.
    unfold gbtiles_ok, gbtiles_crs, gbtiles_token, gbtiles_pickle; simpl. intros Ha. f_equal.
    destruct (gt_box a); simpl; [apply geobox_pickle_token | apply gcpbox_pickle_token]; exact Ha.
  Qed.

  Definition bin_key (b : bin1d) := (Qred (fst (fst b)), num_key (snd (fst b)), snd b).
  Lemma bin_eqb_spec a b : bin_eqb a b = true <-> bin_key a = bin_key b.
  Proof.
    destruct a as [[s o] d], b as [[s' o'] d']. unfold bin_eqb, bin_key; simpl.
    rewrite !andb_true_iff, Qeq_bool_red, num_eqb_spec, Z.eqb_eq, !pair_equal_spec. tauto.
  Qed.
  Definition gridspec_key (a : gridspec) := (gs_shape a, bin_key (gs_ybin a), bin_key (gs_xbin a)).
  Definition gridspec_crs (a : gridspec) := Some (gs_crs a).
  Lemma gridspec_spec a b : gridspec_eqb W a b = true <-> (gridspec_key a = gridspec_key b /\ ocrs_eqb (gridspec_crs a) (gridspec_crs b) = true).
  Proof.
    unfold gridspec_eqb, gridspec_key, gridspec_crs. simpl.
    rewrite !andb_true_iff, zz_eqb_spec, !bin_eqb_spec, !pair_equal_spec. tauto.
  Qed.

  Lemma Qred_mul_abs n a b : Qred a = Qred b -> Qred (inject_Z n * Qabs a) = Qred (inject_Z n * Qabs b).
  Proof.
    intros H. apply Qred_complete.
    assert (E : a == b) by (rewrite <- (Qred_correct a), <- (Qred_correct b), H; reflexivity).
    rewrite E. reflexivity.
  Qed.

  Lemma gridspec_tinj a b : gridspec_token a = gridspec_token b -> gridspec_key a = gridspec_key b /\ ocrs_str (gridspec_crs a) = ocrs_str (gridspec_crs b).
  Proof.
    unfold gridspec_token, gridspec_key, gridspec_crs. intros H. inversion H as [[H1 H2 H3 H4 H5 H6 H7 H8 H9]].
    split; [|simpl; congruence].
    assert (Es : gs_shape a = gs_shape b) by (destruct (gs_shape a), (gs_shape b); simpl in *; congruence).
    unfold gs_ybin, gs_xbin, bin_key; cbn [fst snd]. rewrite Es, H8, H9.
    rewrite (Qred_mul_abs _ _ _ H5), (Qred_mul_abs _ _ _ H4), (num_tok_key _ _ H6), (num_tok_key _ _ H7). auto.
  Qed.

  Definition gridspec_ok (a : gridspec) := D (gs_crs a).
  Lemma gridspec_pickle_token a : gridspec_ok a -> gridspec_token (gridspec_pickle reload a) = gridspec_token a.
  Proof. intros Ha. unfold gridspec_token, gridspec_pickle; simpl. rewrite (cl_reload_str _ _ _ L); auto. Qed.
End Laws.

(** instances that are [==] but spelled differently make [==] boxes with different hash keys *)
Lemma eq_hash_differ W a b :
  crs_eq W a b = true -> c_str a <> c_str b ->
  (forall shape A, geobox_eqb W (mkGeoBox shape A (Some a)) (mkGeoBox shape A (Some b)) = true /\
                   geobox_hashkey (mkGeoBox shape A (Some a)) <> geobox_hashkey (mkGeoBox shape A (Some b))) /\
  (forall box, bbox_eqb W (mkBBox box (Some a)) (mkBBox box (Some b)) = true /\
               bbox_hashkey (mkBBox box (Some a)) <> bbox_hashkey (mkBBox box (Some b))).
Proof.
  intros E N. split; [intros shape A | intros box]; split.
  - apply geobox_spec. split; [reflexivity | exact E].
  - intros H. inversion H. auto.
  - apply bbox_spec. split; [reflexivity | exact E].
  - intros H. inversion H. auto.
Qed.

Lemma eq_laws {A} (eqb : A -> A -> bool) (token : A -> list atom) :
  (forall a b, eqb a b = true <-> a = b) -> (forall a b, token a = token b -> a = b) ->
  (forall a, eqb a a = true) /\ (forall a b, eqb a b = true -> eqb b a = true) /\
  (forall a b c, eqb a b = true -> eqb b c = true -> eqb a c = true) /\
  (forall a b, token a = token b -> eqb a b = true) /\
  (forall a b, eqb a b = true -> token a = token b).
Proof.
  intros S T. destruct (eqb_key_equiv eqb (fun a => a) S) as (R1 & R2 & R3). repeat split; auto.
  - intros a b H. apply S, T, H.
  - intros a b H. apply S in H. rewrite H. reflexivity.
Qed.

Lemma xy_eqb_spec a b : xy_eqb a b = true <-> (num_key (xy_x a), num_key (xy_y a)) = (num_key (xy_x b), num_key (xy_y b)).
Proof. unfold xy_eqb. rewrite andb_true_iff, !num_eqb_spec, pair_equal_spec. tauto. Qed.

Theorem xy_laws :
  (forall a, xy_eqb a a = true) /\ (forall a b, xy_eqb a b = true -> xy_eqb b a = true) /\
  (forall a b c, xy_eqb a b = true -> xy_eqb b c = true -> xy_eqb a c = true) /\
  (forall a b, xy_eqb a b = true -> xy_hashkey a = xy_hashkey b) /\
  (forall a b, xy_token a = xy_token b -> xy_eqb a b = true).
Proof.
  destruct (eqb_key_equiv xy_eqb _ xy_eqb_spec) as (R & S & T). repeat split; auto.
  - intros a b H. apply xy_eqb_spec in H. inversion H as [[H1 H2]]. unfold xy_hashkey. rewrite H1, H2. reflexivity.
  - intros a b H. apply xy_eqb_spec. unfold xy_token in H. inversion H. f_equal; apply num_tok_key; auto.
Qed.

Section FromContracts.
  Variable W : oracle.
  Hypothesis K : contracts W.
  (** [Hp]: the heap (id -> srs) the instances live in *)
  Variable Hp : Z -> option text.

  Definition Dcrs (v : crsv) : Prop :=
    var_ok W v /\ o_prep W (c_srs v) = Some (c_srs v) /\ Hp (c_id v) = Some (c_srs v).

  Lemma Dcrs_iff a b : Dcrs a -> Dcrs b -> (crs_eq W a b = true <-> o_peq W (c_srs a) (c_srs b) = true).
  Proof.
    intros (Oa & Va & Ha) (Ob & Vb & Hb). apply (crs_eq_iff_peq W K); auto.
    intros E. rewrite E in Ha. congruence.
  Qed.

  Theorem crs_laws_from_contracts reload :
    (forall v, Dcrs v -> Dcrs (reload v) /\ c_str (reload v) = c_str v) ->
    crs_laws W Dcrs reload.
  Proof.
    intros Hr. constructor.
    - intros a Da. apply (Dcrs_iff a a Da Da). apply (k_refl W K).
    - intros a b Da Db H. apply (Dcrs_iff b a Db Da). apply (k_sym W K). apply (Dcrs_iff a b Da Db); auto.
    - intros a b c Da Db Dc H1 H2. apply (Dcrs_iff a c Da Dc).
      eapply (k_trans W K); [apply (Dcrs_iff a b Da Db) | apply (Dcrs_iff b c Db Dc)]; auto.
    - intros a b Da Db E. apply (Dcrs_iff a b Da Db).
      destruct Da as ((_ & Sa) & Va & _), Db as ((_ & Sb) & Vb & _). rewrite Sa, Sb in E.
      apply (fresh_str_peq W K); auto.
    - intros a Da. apply Hr; auto.
    - intros a Da. apply Hr; auto.
  Qed.

  (** instances spelled as a single EPSG code ("EPSG:" followed by digits - not a compound "EPSG:h+v" definition):
      [==] implies equal [_str], hence equal hashes *)
  Definition Depsg (v : crsv) : Prop :=
    Dcrs v /\ o_is_epsg W (o_upper W (c_srs v)) = true /\ o_code W (o_upper W (c_srs v)) <> 0.

  Theorem hash_dom_epsg : hash_dom W Depsg.
  Proof.
    intros a b (Da & Ea & Na) (Db & Eb & Nb) H. apply (Dcrs_iff a b Da Db) in H.
    destruct Da as ((_ & Sa) & Va & _), Db as ((_ & Sb) & Vb & _). rewrite Sa, Sb. unfold fresh_str. rewrite Ea, Eb.
    pose proof (k_code_text W K _ Ea Na Va) as Ta. pose proof (k_code_text W K _ Eb Nb Vb) as Tb.
    pose proof (k_toepsg_code W K _ Ea Na Va) as Ca. pose proof (k_toepsg_code W K _ Eb Nb Vb) as Cb.
    pose proof (k_toepsg_peq W K _ _ _ _ H Ca Cb Na Nb) as E. rewrite Ta, Tb, E. reflexivity.
  Qed.
End FromContracts.

Fixpoint hfun (h : list (Z * text)) (id : Z) : option text :=
  match h with [] => None | (i, s) :: r => if i =? id then Some s else hfun r id end.

Lemma hfun_In h i s : NoDup (map fst h) -> In (i, s) h -> hfun h i = Some s.
Proof.
  induction h as [|[j t] r IH]; simpl; intros Hn Hin; [tauto|].
  inversion Hn as [|? ? Hnot Hr]; subst.
  destruct Hin as [Hin|Hin].
  - inversion Hin; subst. rewrite Z.eqb_refl. reflexivity.
  - destruct (Z.eqb_spec j i) as [->|Ne]; auto.
    exfalso. apply Hnot. apply in_map_iff. exists (i, s); auto.
Qed.

Theorem good_vars_in_D W (K : contracts W) st v :
  good W st -> In (Some v) (vars st) -> Dcrs W (hfun (heap st)) v.
Proof.
  intros G Hin. split; [apply (g_vars W _ G); auto|]. split; [eapply var_valid; eauto|].
  destruct (inv_vars _ (g_inv W _ G) v Hin) as (A & _).
  apply hfun_In; auto. apply (inv_nodup _ (g_inv W _ G)).
Qed.
