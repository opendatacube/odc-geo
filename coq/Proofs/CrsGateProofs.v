(** Lemmas about Model/CrsGate.v, the bbox folds of Model/Tagged.v and the CRS gate of
    the GeoBox operations of Model/GridOps.v (property C01).  Nothing is assumed about
    [crs_eqb] unless stated. *)
From Coq Require Import ZArith QArith List Bool.
From OG Require Import Base.Result Base.Aff2 Model.Tagged Model.CrsGate Model.GridOps.
Import ListNotations.

Section GateProofs.
  Variable crs : Type.
  Variable crs_eqb : crs -> crs -> bool.
  Variables G R : Type.
  Notation tag := (option crs).
  Notation geom := (@geom crs G).

  (** each gate loop is an [existsb]; the mismatch predicates of the theorems say the same *)
  Lemma gate_eq (c : tag) (rest : list geom) :
    gate crs_eqb c rest = if existsb (tag_ne crs_eqb c) (map gtag rest) then Err ECrs else Ok tt.
  Proof. induction rest as [|a rest IH]; simpl; [|destruct (tag_ne crs_eqb c (gtag a))]; auto. Qed.

  Lemma common_loop_eq (ref : tag) (rest : list tag) :
    common_loop crs_eqb ref rest = if existsb (fun c => tag_ne crs_eqb c ref) rest then Err ECrs else Ok tt.
  Proof. induction rest as [|c rest IH]; simpl; [|destruct (tag_ne crs_eqb c ref)]; auto. Qed.

  Lemma mismatch_after_iff (c : tag) l : mismatch_after crs_eqb c l <-> existsb (tag_ne crs_eqb c) l = true.
  Proof. symmetry. apply existsb_exists. Qed.

  Lemma mismatch_before_iff (c : tag) l :
    mismatch_before crs_eqb c l <-> existsb (fun x => tag_ne crs_eqb x c) l = true.
  Proof. symmetry. apply existsb_exists. Qed.

  Lemma tag_ne_sym (a b : tag) :
    (forall x y, crs_eqb x y = crs_eqb y x) -> tag_ne crs_eqb a b = tag_ne crs_eqb b a.
  Proof. intros Hs. destruct a, b; simpl; try reflexivity. rewrite Hs. reflexivity. Qed.

  Theorem binop_spec (f : G -> G -> G + R) (a b : geom) :
    binop crs_eqb f a b =
    if tag_ne crs_eqb (gtag a) (gtag b) then Err ECrs
    else Ok (retag (gtag a) (f (ggeom a) (ggeom b))).
  Proof. unfold binop, wrapped; simpl. destruct (tag_ne crs_eqb (gtag a) (gtag b)); reflexivity. Qed.

  Theorem multigeom_empty (fmulti : list G -> G) :
    common_crs crs_eqb (@nil geom) = Ok None /\ multigeom crs_eqb fmulti [] = Ok (mkGeom (fmulti []) None).
  Proof. split; reflexivity. Qed.

  Section Inter.
    Variable finter : G -> G -> G + R.
    (* oracle contract: shapely's intersection of two geometries is a geometry *)
    Hypothesis finter_geom : forall x y, exists g, finter x y = inl g.

    Notation raw_inter := (raw_inter finter).

    Lemma reduce_inter_eq (rest : list geom) : forall acc : geom,
      reduce_inter crs_eqb finter acc rest =
      if existsb (tag_ne crs_eqb (gtag acc)) (map gtag rest) then Err ECrs
      else Ok (mkGeom (fold_left raw_inter (map ggeom rest) (ggeom acc)) (gtag acc)).
    Proof.
      induction rest as [|g rest IH]; intros acc; simpl.
      - destruct acc; reflexivity.
      - rewrite binop_spec. destruct (tag_ne crs_eqb (gtag acc) (gtag g)); [reflexivity|].
        unfold raw_inter at 2. destruct (finter_geom (ggeom acc) (ggeom g)) as (r & ->).
        exact (IH (mkGeom r (gtag acc))).
    Qed.
  End Inter.

  Theorem unary_intersection_ok_inv (finter : G -> G -> G + R) (rest : list geom) : forall (first r : geom),
    unary_intersection crs_eqb finter (first :: rest) = Ok r ->
    (forall a, In a rest -> tag_ne crs_eqb (gtag first) (gtag a) = false) /\ gtag r = gtag first.
  Proof.
    unfold unary_intersection.
    induction rest as [|g rest IH]; intros first r; simpl.
    - intros [= <-]. split; [intros ? [] | reflexivity].
    - rewrite binop_spec. destruct (tag_ne crs_eqb (gtag first) (gtag g)) eqn:E; simpl; [discriminate|].
      destruct (finter (ggeom first) (ggeom g)) as [x | x]; simpl; [|discriminate].
      intros H. destruct (IH _ _ H) as (H1 & H2). split; [|exact H2].
      intros b [<- | Hb]; [exact E | apply H1; exact Hb].
  Qed.
End GateProofs.

Section BoxGate.
  Variable crs : Type.
  Variable crs_eqb : crs -> crs -> bool.
  Variable A : Type.
  Variables lo hi : A -> A -> A.
  Notation bbox := (@bbox crs A).

  Theorem bbox_folds_empty :
    bbox_union crs_eqb lo hi (@nil bbox) = Err EValue /\ bbox_intersection crs_eqb lo hi (@nil bbox) = Err EValue.
  Proof. split; reflexivity. Qed.
End BoxGate.

Section GeoBoxGate.
  Variable crs : Type.
  Variable crs_eqb : crs -> crs -> bool.
  Notation geobox := (geobox crs).
  Variables atol rtol tol : Q.

  Theorem geobox_pair_mismatch (fx : fixes) (a b : geobox) :
    tag_ne crs_eqb (gcrs b) (gcrs a) = true ->
    pixel_translation crs_eqb atol rtol b a = Err EValue /\
    bbox_in_pix crs_eqb atol rtol tol b a = Err EValue /\
    overlap_roi crs_eqb fx atol rtol tol a b = Err EValue /\
    snap_to crs_eqb atol rtol tol a b = Err EValue.
  Proof.
    intros H.
    assert (P : pixel_translation crs_eqb atol rtol b a = Err EValue).
    { unfold pixel_translation. rewrite H. reflexivity. }
    assert (Bp : bbox_in_pix crs_eqb atol rtol tol b a = Err EValue).
    { unfold bbox_in_pix. rewrite P. reflexivity. }
    split; [exact P|]. split; [exact Bp|]. split.
    - unfold overlap_roi. rewrite Bp. reflexivity.
    - unfold snap_to. rewrite P. reflexivity.
  Qed.
End GeoBoxGate.
