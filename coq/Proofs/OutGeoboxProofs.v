(** Proofs about Model/OutGeobox.v (property C11).  The model's copies of the
    math.py helpers agree with Model/MathH.v up to the labels of the assertions,
    so the contract of one snapped axis comes from Proofs/MathHSnap.v
    ([axis_props]).  [from_bbox] is then read by kind of request
    ([from_bbox_eq]): all but an explicit (ny, nx) without snapping go through
    [build], two snapped axes put together.  The lemmas named [cog_...] are
    about [compute_output_geobox] on top of it. *)
From Coq Require Import ZArith QArith Qround Qabs List Lia Lqa.
From OG Require Import Base.Result Base.ResSim Base.QZ Model.OutGeobox Proofs.MathHBasics Proofs.MathHSnap.
From OG Require Model.MathH.
Import ListNotations.
Open Scope Q_scope.

Lemma guard_ok {B} b e (k : unit -> res B) r :
  (u <- guard b e ;; k u) = Ok r -> b = true /\ k tt = Ok r.
Proof. destruct b; [auto|discriminate]. Qed.

Lemma Qltb_true x y : Qltb x y = true <-> x < y.
Proof. exact (QMinMax.Qlt_bool_true x y). Qed.

Lemma Qltb_false x y : Qltb x y = false <-> y <= x.
Proof. exact (QMinMax.Qlt_bool_false x y). Qed.

Lemma qminmax_spec x y :
  (x <= y /\ qmin x y = x /\ qmax x y = y) \/ (y < x /\ qmin x y = y /\ qmax x y = x).
Proof. exact (QMinMax.qminmax_spec x y). Qed.

Lemma sign_cases rs : 0 < Qabs rs ->
  (0 < rs /\ Qabs rs == rs /\ Qltb 0 rs = true) \/ (rs < 0 /\ Qabs rs == - rs /\ Qltb 0 rs = false).
Proof.
  intros Ha. destruct (Qlt_le_dec 0 rs) as [P|P].
  - left. split; [exact P|]. split; [apply Qabs_pos; lra | apply Qltb_true; exact P].
  - right. pose proof (Qabs_neg rs P) as E.
    split; [lra|]. split; [exact E | apply Qltb_false; exact P].
Qed.

Lemma split_float_spec x :
  exists z, fst (split_float x) == inject_Z z /\
            fst (split_float x) + snd (split_float x) == x /\
            - (1 # 2) <= snd (split_float x) /\ snd (split_float x) <= 1 # 2.
Proof.
  destruct (split_float_char x) as (z & Hw & Hp & H1 & H2). exists z.
  change (MathH.split_float x) with (split_float x) in Hw, Hp. rewrite Hw, Hp. repeat split; lra.
Qed.

Lemma maybe_int_eq x tol : maybe_int x tol = MathH.maybe_int x tol.
Proof.
  unfold maybe_int, MathH.maybe_int, MathH.maybe_int_z. change (MathH.split_float x) with (split_float x).
  destruct (split_float x) as [w p]. change MathH.Qltb with Qltb. destruct (Qltb (Qabs p) tol); reflexivity.
Qed.

Lemma maybe_int_of_Z (n : Z) tol : maybe_int (inject_Z n) tol == inject_Z n.
Proof. rewrite maybe_int_eq. apply MathHBasics.maybe_int_of_Z. Qed.

Lemma snap_edge_pos_sim x0 x1 rs tol : res_sim (snap_edge_pos x0 x1 rs tol) (MathH.snap_edge_pos x0 x1 rs tol).
Proof.
  unfold snap_edge_pos, MathH.snap_edge_pos. rewrite !maybe_int_eq. change MathH.Qltb with Qltb.
  destruct (Qltb 0 rs); [|reflexivity]. destruct (Qle_bool x0 x1); reflexivity.
Qed.

Lemma snap_edge_sim x0 x1 rs tol : res_sim (snap_edge x0 x1 rs tol) (MathH.snap_edge x0 x1 rs tol).
Proof.
  unfold snap_edge, MathH.snap_edge. change MathH.Qltb with Qltb. destruct (Qle_bool x0 x1); [|reflexivity].
  cbn [guard bind negb]. destruct (Qltb 0 rs); [apply snap_edge_pos_sim|].
  apply res_sim_bind; [apply snap_edge_pos_sim|]. intros [tx nx]. reflexivity.
Qed.

Lemma snap_grid_sim x0 x1 rs off tol : res_sim (snap_grid x0 x1 rs off tol) (MathH.snap_grid x0 x1 rs off tol).
Proof.
  unfold snap_grid, MathH.snap_grid. rewrite !maybe_int_eq. change MathH.Qltb with Qltb. destruct off as [o|].
  - destruct (Qle_bool 0 o && Qltb o 1); [|reflexivity]. cbn [guard bind negb].
    apply res_sim_bind; [apply snap_edge_sim|]. intros [tx nx]. reflexivity.
  - destruct (Qltb 0 rs); [reflexivity|]. destruct (Qeq_bool rs 0); reflexivity.
Qed.

Lemma snap_grid_ok x0 x1 rs off tol r :
  snap_grid x0 x1 rs off tol = Ok r <-> MathH.snap_grid x0 x1 rs off tol = Ok r.
Proof. apply res_sim_ok, snap_grid_sim. Qed.

(** What [snap_grid] returns for the axis [x0, x1] with signed pixel size [rs]:
    the origin [tx] (low edge for [0 < rs], high edge otherwise) of an axis
    within the contract that sits at the anchor fraction; without snapping the
    origin is the box edge. *)
Definition axis_props (x0 x1 rs : Q) (off : option Q) (tol tx : Q) (n : Z) : Prop :=
  fits x0 x1 (Qabs rs) tol (if Qltb 0 rs then tx else tx + inject_Z n * rs)
                           (if Qltb 0 rs then tx + inject_Z n * rs else tx) n /\
  match off with
  | Some o => exists k : Z, tx == (inject_Z k + o) * Qabs rs
  | None => tx == (if Qltb 0 rs then x0 else x1)
  end.

Lemma snap_grid_spec x0 x1 rs off tol :
  ~ rs == 0 -> x0 < x1 -> 0 <= tol -> off_ok off ->
  exists tx n, snap_grid x0 x1 rs off tol = Ok (tx, n) /\ axis_props x0 x1 rs off tol tx n.
Proof.
  intros Hr Hx Ht Ho. destruct off as [o|].
  - destruct (snap_grid_some_spec x0 x1 rs o tol Hr (Qlt_le_weak _ _ Hx) Ho Ht) as (tx & n & k & E & A & F).
    exists tx, n. split; [apply snap_grid_ok, E|]. split; [exact F | exists k; exact A].
  - destruct (snap_grid_none_fits x0 x1 rs tol Hr Hx Ht) as (tx & n & E & -> & F).
    eexists _, n. split; [apply snap_grid_ok, E|]. split; [exact F | reflexivity].
Qed.

Lemma snap_grid_props x0 x1 rs off tol tx n :
  snap_grid x0 x1 rs off tol = Ok (tx, n) -> x0 < x1 -> 0 <= tol ->
  axis_props x0 x1 rs off tol tx n.
Proof.
  intros H Hx Ht. destruct (snap_grid_ok_inv x0 x1 rs off tol (tx, n)) as [Hr Ho]; [apply snap_grid_ok, H|].
  destruct (snap_grid_spec x0 x1 rs off tol Hr Hx Ht Ho) as (tx' & n' & R & P).
  rewrite R in H. injection H as <- <-. exact P.
Qed.

(** the affine product stores [1 * rx + 0 * 0] for [rx]: the contract is needed up to [==] *)
Lemma axis_props_ext x0 x1 rs rs' off tol tx tx' n :
  rs' == rs -> tx' == tx -> axis_props x0 x1 rs off tol tx n -> axis_props x0 x1 rs' off tol tx' n.
Proof.
  intros F E [A O]. unfold axis_props.
  assert (L : Qltb 0 rs' = Qltb 0 rs) by (unfold Qltb; rewrite F; reflexivity).
  rewrite L. split.
  - destruct (Qltb 0 rs); rewrite F, E; exact A.
  - destruct off as [o|]; [|rewrite E; exact O]. destruct O as (k & K). exists k. rewrite E, F. exact K.
Qed.

(** the model's [g_left] / [g_right] and [g_bottom] / [g_top], for one axis *)
Definition axis_lo (tx : Q) (n : Z) (rs : Q) : Q := qmin tx (tx + inject_Z n * rs).
Definition axis_hi (tx : Q) (n : Z) (rs : Q) : Q := qmax tx (tx + inject_Z n * rs).

Lemma axis_edges tx n rs : (1 <= n)%Z -> 0 < Qabs rs ->
  axis_lo tx n rs == (if Qltb 0 rs then tx else tx + inject_Z n * rs) /\
  axis_hi tx n rs == (if Qltb 0 rs then tx + inject_Z n * rs else tx).
Proof.
  intros Hn Ha. pose proof (inject_Z_ge1 n Hn) as HN.
  unfold axis_lo, axis_hi. set (N := inject_Z n) in *.
  destruct (sign_cases rs Ha) as [(S & _ & ->)|(S & _ & ->)].
  - assert (W : 0 < N * rs) by nra.
    destruct (qminmax_spec tx (tx + N * rs)) as [(L & -> & ->)|(L & -> & ->)]; split; lra.
  - assert (W : N * rs < 0) by nra.
    destruct (qminmax_spec tx (tx + N * rs)) as [(L & -> & ->)|(L & -> & ->)]; split; lra.
Qed.

Lemma axis_props_edges x0 x1 rs off tol tx n :
  axis_props x0 x1 rs off tol tx n ->
  fits x0 x1 (Qabs rs) tol (axis_lo tx n rs) (axis_hi tx n rs) n.
Proof.
  intros [A _]. destruct (axis_edges tx n rs) as [El Eh]; [apply A..|]. rewrite El, Eh. exact A.
Qed.

Lemma axis_props_aligned x0 x1 rs o tol tx n :
  axis_props x0 x1 rs (Some o) tol tx n ->
  forall i : Z, exists k : Z, tx + inject_Z i * rs == (inject_Z k + o) * Qabs rs.
Proof.
  intros [(_ & Ha & _) (k & K)] i. destruct (sign_cases rs Ha) as [(_ & Ea & _)|(_ & Ea & _)].
  - exists (k + i)%Z. rewrite K, Ea, inject_Z_plus. ring.
  - exists (k - i)%Z. rewrite K, Ea, inject_Z_sub. ring.
Qed.

Lemma axis_props_near x0 x1 rs off tol tx n :
  axis_props x0 x1 rs off tol tx n -> Qabs rs <= x1 - x0 ->
  Qabs (tx - (if Qltb 0 rs then x0 else x1)) < Qabs rs.
Proof. intros [A _] Hs. apply fits_near in A; [|exact Hs]. destruct (Qltb 0 rs); apply A. Qed.

Definition valid_box (B : bbox) : Prop := bl B < br B /\ bb B < bt B.

(** translation * scale: the affine of every grid [from_bbox] makes *)
Definition ts (offx offy rx ry : Q) : affine := aff_mul (aff_translation offx offy) (aff_scale rx ry).

Lemma ts_spec offx offy rx ry :
  let m := ts offx offy rx ry in
  aa m == rx /\ ab m == 0 /\ ac m == offx /\ ad m == 0 /\ ae m == ry /\ af m == offy.
Proof.
  unfold ts, aff_mul, aff_translation, aff_scale. cbn [aa ab ac ad ae af]. repeat split; ring.
Qed.

(** the grid assembled from two snapped axes *)
Definition build (B : bbox) (crs : Z) (snap : option (Q * Q)) (rx ry tol : Q) : res gbox :=
  '(offx, nx) <- snap_grid (bl B) (br B) rx (option_map fst snap) tol ;;
  '(offy, ny) <- snap_grid (bb B) (bt B) ry (option_map snd snap) tol ;;
  Ok (mkG ny nx (ts offx offy rx ry) crs).

Definition longest_res (B : bbox) (n : Z) : Q :=
  if Qltb 1 (span_x B / span_y B) then span_x B / inject_Z n else span_y B / inject_Z n.

Definition yx_rx (B : bbox) (nx : Z) : Q := span_x B / inject_Z nx.
Definition yx_ry (B : bbox) (ny : Z) : Q := - span_y B / inject_Z ny.

Lemma yx_res_spec B ny nx :
  valid_box B -> (0 < nx)%Z -> (0 < ny)%Z ->
  0 < yx_rx B nx <= br B - bl B /\
  yx_ry B ny == - (span_y B / inject_Z ny) /\ 0 < span_y B / inject_Z ny <= bt B - bb B.
Proof.
  intros [Vx Vy] Hnx%Zlt_le_succ%inject_Z_ge1 Hny%Zlt_le_succ%inject_Z_ge1. unfold yx_rx, yx_ry, span_x, span_y.
  split; [split; [apply Qlt_shift_div_l|apply Qle_shift_div_r]; nra|].
  split; [field; lra|]. split; [apply Qlt_shift_div_l|apply Qle_shift_div_r]; nra.
Qed.

(** [from_bbox] by kind of request.  An explicit (ny, nx) keeps its own shape
    and takes only the origin of the snapped grid. *)
Lemma from_bbox_eq B crs tight shape r anc tol :
  from_bbox B crs tight shape r anc tol =
  (a <- norm_anchor anc ;;
   let snap := snap_of tight a in
   match shape, r with
   | Some (ShapeN n), _ =>
       _ <- guard (negb (Qeq_bool (span_y B) 0)) EOther ;;
       _ <- guard (negb (Z.eqb n 0)) EOther ;;
       build B crs snap (longest_res B n) (- longest_res B n) tol
   | _, Some (rx, ry) => build B crs snap rx ry tol
   | Some (ShapeYX ny nx), None =>
       _ <- guard (negb (Z.eqb nx 0)) EOther ;;
       _ <- guard (negb (Z.eqb ny 0)) EOther ;;
       m <- match snap with
            | None => Ok (ts (bl B) (bt B) (yx_rx B nx) (yx_ry B ny))
            | Some _ => g <- build B crs snap (yx_rx B nx) (yx_ry B ny) tol ;; Ok (g_aff g)
            end ;;
       Ok (mkG ny nx m crs)
   | None, None => Err EValue
   end).
Proof.
  unfold from_bbox, build, longest_res. destruct (norm_anchor anc) as [a|]; [|reflexivity]. cbn [bind].
  destruct shape as [[n|ny nx]|].
  - destruct (negb (Qeq_bool (span_y B) 0)); [|reflexivity].
    destruct (negb (Z.eqb n 0)); reflexivity.
  - destruct r as [[rx ry]|]; [reflexivity|]. cbn [bind].
    destruct (negb (Z.eqb nx 0)); [|reflexivity]. destruct (negb (Z.eqb ny 0)); [|reflexivity].
    destruct (snap_of tight a) as [[sx sy]|]; [|reflexivity]. cbn [guard bind option_map fst snd].
    destruct (snap_grid (bl B) (br B) _ _ tol) as [[]|]; [|reflexivity].
    destruct (snap_grid (bb B) (bt B) _ _ tol) as [[]|]; reflexivity.
  - destruct r as [[rx ry]|]; reflexivity.
Qed.

Definition axis_aligned (g : gbox) : Prop := ab (g_aff g) == 0 /\ ad (g_aff g) == 0.

Definition grid_props (B : bbox) (snap : option (Q * Q)) (tol : Q) (g : gbox) : Prop :=
  axis_props (bl B) (br B) (aa (g_aff g)) (option_map fst snap) tol (g_x0 g) (g_nx g) /\
  axis_props (bb B) (bt B) (ae (g_aff g)) (option_map snd snap) tol (g_y0 g) (g_ny g).

Lemma build_inv B crs snap rx ry tol g :
  build B crs snap rx ry tol = Ok g ->
  exists offx nx offy ny,
    snap_grid (bl B) (br B) rx (option_map fst snap) tol = Ok (offx, nx) /\
    snap_grid (bb B) (bt B) ry (option_map snd snap) tol = Ok (offy, ny) /\
    g = mkG ny nx (ts offx offy rx ry) crs.
Proof.
  unfold build. intros H.
  apply bind_ok in H as ([offx nx] & H1 & H). apply bind_ok in H as ([offy ny] & H2 & H).
  injection H as <-. exists offx, nx, offy, ny. auto.
Qed.

Lemma build_props B crs snap rx ry tol g :
  build B crs snap rx ry tol = Ok g ->
  g_crs g = crs /\ axis_aligned g /\ aa (g_aff g) == rx /\ ae (g_aff g) == ry /\
  (valid_box B -> 0 <= tol -> grid_props B snap tol g).
Proof.
  intros H. apply build_inv in H as (offx & nx & offy & ny & H1 & H2 & ->).
  destruct (ts_spec offx offy rx ry) as (A1 & A2 & A3 & A4 & A5 & A6).
  split; [reflexivity|]. split; [split; assumption|]. split; [exact A1|]. split; [exact A5|].
  intros [Vx Vy] Ht. split.
  - apply (axis_props_ext _ _ rx _ _ _ offx); [exact A1|exact A3|]. exact (snap_grid_props _ _ _ _ _ _ _ H1 Vx Ht).
  - apply (axis_props_ext _ _ ry _ _ _ offy); [exact A5|exact A6|]. exact (snap_grid_props _ _ _ _ _ _ _ H2 Vy Ht).
Qed.

Lemma build_total B crs snap rx ry tol :
  valid_box B -> 0 <= tol -> ~ rx == 0 -> ~ ry == 0 ->
  off_ok (option_map fst snap) -> off_ok (option_map snd snap) ->
  exists g, build B crs snap rx ry tol = Ok g.
Proof.
  intros [Vx Vy] Ht Hx Hy O1 O2. unfold build.
  destruct (snap_grid_spec (bl B) (br B) rx _ tol Hx Vx Ht O1) as (tx & nx & -> & _).
  destruct (snap_grid_spec (bb B) (bt B) ry _ tol Hy Vy Ht O2) as (ty & ny & -> & _).
  cbn [bind]. eauto.
Qed.

Definition px (g : gbox) : Q := Qabs (aa (g_aff g)).
Definition py (g : gbox) : Q := Qabs (ae (g_aff g)).

(** the grid covers box [B] except at most [tol] pixel per side *)
Definition covers (B : bbox) (tol : Q) (g : gbox) : Prop :=
  g_left g <= bl B + tol * px g /\ br B - tol * px g <= g_right g /\
  g_bottom g <= bb B + tol * py g /\ bt B - tol * py g <= g_top g.

(** ... and is less than one pixel larger than necessary on every side
    (a side of exactly one pixel is the documented minimum) *)
Definition snug (B : bbox) (g : gbox) : Prop :=
  bl B - px g < g_left g /\ (g_right g < br B + px g \/ g_nx g = 1%Z) /\
  bb B - py g < g_bottom g /\ (g_top g < bt B + py g \/ g_ny g = 1%Z).

(** every pixel edge sits at (integer + anchor fraction) * pixel size *)
Definition aligned (sx sy : Q) (g : gbox) : Prop :=
  forall i : Z,
    (exists k : Z, g_x0 g + inject_Z i * aa (g_aff g) == (inject_Z k + sx) * px g) /\
    (exists k : Z, g_y0 g + inject_Z i * ae (g_aff g) == (inject_Z k + sy) * py g).

(** no snapping: the grid starts exactly at the box corner its orientation dictates *)
Definition starts_at_box (B : bbox) (g : gbox) : Prop :=
  g_x0 g == (if Qltb 0 (aa (g_aff g)) then bl B else br B) /\
  g_y0 g == (if Qltb 0 (ae (g_aff g)) then bb B else bt B).

Definition alignment_as_requested (B : bbox) (snap : option (Q * Q)) (g : gbox) : Prop :=
  match snap with
  | Some (sx, sy) => aligned sx sy g
  | None => starts_at_box B g
  end.

Lemma grid_covers B snap tol g :
  grid_props B snap tol g ->
  (1 <= g_nx g)%Z /\ (1 <= g_ny g)%Z /\ 0 < px g /\ 0 < py g /\ covers B tol g /\ snug B g.
Proof.
  intros [PX PY].
  apply axis_props_edges in PX as (X0 & X1 & _ & X3 & _ & X5 & X6 & _ & X8).
  apply axis_props_edges in PY as (Y0 & Y1 & _ & Y3 & _ & Y5 & Y6 & _ & Y8).
  split; [exact X0|]. split; [exact Y0|]. split; [exact X1|]. split; [exact Y1|].
  split; repeat split; assumption.
Qed.

Lemma grid_alignment B snap tol g : grid_props B snap tol g -> alignment_as_requested B snap g.
Proof.
  intros [PX PY]. destruct snap as [[sx sy]|].
  - intros i. split; [exact (axis_props_aligned _ _ _ _ _ _ _ PX i)|exact (axis_props_aligned _ _ _ _ _ _ _ PY i)].
  - destruct PX as [_ X], PY as [_ Y]. split; assumption.
Qed.

Definition shortcut (s : src) (dst : Z) (rq : res_req) (shape : option shape_req) (anc : anchor) : bool :=
  Z.eqb dst (s_crs s) && is_auto_or_same rq && is_none shape && is_default_anchor anc && s_isgeobox s.

Lemma cog_unfold s dst du B fit rq shape tight anc tol rr :
  compute_output_geobox s dst du B fit rq shape tight anc tol rr =
  if shortcut s dst rq shape anc then Ok OSame
  else r <- choose_resolution s du fit rq shape rr ;;
       g <- from_bbox B dst tight shape r anc tol ;; Ok (ONew g).
Proof. reflexivity. Qed.

Lemma shortcut_true_iff s dst rq shape anc :
  shortcut s dst rq shape anc = true <->
  dst = s_crs s /\ (rq = RAuto \/ rq = RSame) /\ shape = None /\ anc = AStr SDefault /\ s_isgeobox s = true.
Proof.
  unfold shortcut. rewrite !andb_true_iff, Z.eqb_eq. split.
  - intros ((((H1 & H2) & H3) & H4) & H5). split; [exact H1|].
    split. { destruct rq; simpl in H2; try discriminate; auto. }
    split. { destruct shape; simpl in H3; [discriminate|reflexivity]. }
    split; [|exact H5].
    destruct anc as [| | | | |[]]; simpl in H4; try discriminate. reflexivity.
  - intros (H1 & H2 & H3 & H4 & H5). subst. destruct H2; subst; simpl; auto.
Qed.

Lemma cog_same_iff s dst du B fit rq shape tight anc tol rr :
  compute_output_geobox s dst du B fit rq shape tight anc tol rr = Ok OSame <->
  dst = s_crs s /\ (rq = RAuto \/ rq = RSame) /\ shape = None /\ anc = AStr SDefault /\ s_isgeobox s = true.
Proof.
  rewrite cog_unfold, <- shortcut_true_iff. destruct (shortcut s dst rq shape anc).
  - split; reflexivity.
  - split; [|discriminate]. intros H.
    apply bind_ok in H as (r & _ & H). apply bind_ok in H as (g & _ & H). discriminate.
Qed.

Lemma cog_new_inv s dst du B fit rq shape tight anc tol rr g :
  compute_output_geobox s dst du B fit rq shape tight anc tol rr = Ok (ONew g) ->
  exists r, choose_resolution s du fit rq shape rr = Ok r /\ from_bbox B dst tight shape r anc tol = Ok g.
Proof.
  rewrite cog_unfold. destruct (shortcut s dst rq shape anc); [discriminate|].
  intros H. apply bind_ok in H as (r & H1 & H). apply bind_ok in H as (g' & H2 & H).
  injection H as <-. eauto.
Qed.

(** the resolution rounding hook *)
Definition rounded (rr : rr_mode) (fit : Q) : Q :=
  match rr with
  | RRNone | RRBool false => fit
  | RRBool true => inject_Z (round_half_even fit)
  | RRFun f => f fit
  end.

(** the decision table for the pixel size, when no shape is requested *)
Definition chosen (s : src) (du : Z) (fit : Q) (rq : res_req) (rr : rr_mode) : res (Q * Q) :=
  match rq with
  | RSame => Ok (s_res s)
  | RAuto => if Z.eqb (s_units s) du then Ok (s_res s) else Ok (rounded rr fit, - rounded rr fit)
  | RFit => Ok (rounded rr fit, - rounded rr fit)
  | RStr => Err EValue
  | RNum q => Ok (q, - q)
  | RXY x y => Ok (x, y)
  end.

Lemma choose_resolution_none s du fit rq rr :
  choose_resolution s du fit rq None rr =
  match chosen s du fit rq rr with Ok r => Ok (Some r) | Err e => Err e end.
Proof.
  unfold choose_resolution, chosen, rounded, res_. simpl.
  destruct rq; try reflexivity; try (destruct (Z.eqb (s_units s) du)); try reflexivity;
    destruct rr as [|[]|]; reflexivity.
Qed.

Lemma choose_resolution_shape s du fit rq sh rr :
  choose_resolution s du fit rq (Some sh) rr = Ok None.
Proof. reflexivity. Qed.

Definition not_yx (shape : option shape_req) : Prop :=
  match shape with Some (ShapeYX _ _) => False | _ => True end.

Lemma cog_build s dst du B fit rq shape tight anc tol rr g :
  compute_output_geobox s dst du B fit rq shape tight anc tol rr = Ok (ONew g) -> not_yx shape ->
  exists na rx ry,
    norm_anchor anc = Ok na /\ build B dst (snap_of tight na) rx ry tol = Ok g /\
    match shape with
    | None => chosen s du fit rq rr = Ok (rx, ry)
    | Some (ShapeN n) => rx = longest_res B n /\ ry = - longest_res B n
    | _ => False
    end.
Proof.
  intros H NY. apply cog_new_inv in H as (r & H1 & H2).
  rewrite from_bbox_eq in H2. apply bind_ok in H2 as (na & Ha & H2).
  destruct shape as [[n|ny nx]|]; [| destruct NY |].
  - apply guard_ok in H2 as [_ H2]. apply guard_ok in H2 as [_ H2].
    exists na, (longest_res B n), (- longest_res B n). auto.
  - rewrite choose_resolution_none in H1.
    destruct (chosen s du fit rq rr) as [[rx ry]|e]; [|discriminate]. injection H1 as <-.
    exists na, rx, ry. auto.
Qed.

Lemma cog_yx_inv s dst du B fit rq ny nx tight anc tol rr g :
  compute_output_geobox s dst du B fit rq (Some (ShapeYX ny nx)) tight anc tol rr = Ok (ONew g) ->
  exists na m, norm_anchor anc = Ok na /\ g = mkG ny nx m dst /\
    aa m == yx_rx B nx /\ ae m == yx_ry B ny /\ (ab m == 0 /\ ad m == 0) /\
    match snap_of tight na with
    | None => ac m == bl B /\ af m == bt B
    | Some _ => exists g', build B dst (snap_of tight na) (yx_rx B nx) (yx_ry B ny) tol = Ok g' /\ m = g_aff g'
    end.
Proof.
  intros H. apply cog_new_inv in H as (r & H1 & H2).
  rewrite choose_resolution_shape in H1. injection H1 as <-.
  rewrite from_bbox_eq in H2. apply bind_ok in H2 as (na & Ha & H2).
  apply guard_ok in H2 as [_ H2]. apply guard_ok in H2 as [_ H2].
  apply bind_ok in H2 as (m & Hm & H2). injection H2 as <-.
  exists na, m. split; [exact Ha|]. split; [reflexivity|].
  destruct (snap_of tight na).
  - apply bind_ok in Hm as (g' & Hb & Hm). injection Hm as <-.
    destruct (build_props _ _ _ _ _ _ _ Hb) as (_ & A & A1 & A2 & _). eauto 6.
  - injection Hm as <-.
    destruct (ts_spec (bl B) (bt B) (yx_rx B nx) (yx_ry B ny)) as (A1 & A2 & A3 & A4 & A5 & A6). auto 6.
Qed.

Lemma cog_resolution s dst du B fit rq tight anc tol rr g :
  compute_output_geobox s dst du B fit rq None tight anc tol rr = Ok (ONew g) ->
  exists rx ry, chosen s du fit rq rr = Ok (rx, ry) /\ aa (g_aff g) == rx /\ ae (g_aff g) == ry.
Proof.
  intros H. destruct (cog_build _ _ _ _ _ _ _ _ _ _ _ _ H I) as (na & rx & ry & _ & Hb & Hc).
  destruct (build_props _ _ _ _ _ _ _ Hb) as (_ & _ & A1 & A2 & _). exists rx, ry. auto.
Qed.

Lemma cog_grid s dst du B fit rq shape tight anc tol rr g :
  compute_output_geobox s dst du B fit rq shape tight anc tol rr = Ok (ONew g) ->
  not_yx shape -> valid_box B -> 0 <= tol ->
  exists na, norm_anchor anc = Ok na /\ grid_props B (snap_of tight na) tol g.
Proof.
  intros H NY V Ht. destruct (cog_build _ _ _ _ _ _ _ _ _ _ _ _ H NY) as (na & rx & ry & Ha & Hb & _).
  destruct (build_props _ _ _ _ _ _ _ Hb) as (_ & _ & _ & _ & P). exists na. auto.
Qed.

Lemma cog_alignment s dst du B fit rq shape tight anc tol rr g :
  compute_output_geobox s dst du B fit rq shape tight anc tol rr = Ok (ONew g) ->
  not_yx shape -> valid_box B -> 0 <= tol ->
  exists na, norm_anchor anc = Ok na /\ alignment_as_requested B (snap_of tight na) g.
Proof.
  intros H NY V Ht. destruct (cog_grid _ _ _ _ _ _ _ _ _ _ _ _ H NY V Ht) as (na & Ha & P).
  exists na. split; [exact Ha|exact (grid_alignment _ _ _ _ P)].
Qed.

Lemma cog_shape_yx s dst du B fit rq ny nx tight anc tol rr g :
  compute_output_geobox s dst du B fit rq (Some (ShapeYX ny nx)) tight anc tol rr = Ok (ONew g) ->
  valid_box B -> 0 <= tol -> (0 < nx)%Z -> (0 < ny)%Z ->
  g_ny g = ny /\ g_nx g = nx /\ g_crs g = dst /\ axis_aligned g /\
  aa (g_aff g) == span_x B / inject_Z nx /\ ae (g_aff g) == - (span_y B / inject_Z ny) /\
  Qabs (g_x0 g - bl B) < px g /\ Qabs (g_y0 g - bt B) < py g /\
  exists na, norm_anchor anc = Ok na /\
    match snap_of tight na with
    | None => g_x0 g == bl B /\ g_y0 g == bt B
    | Some (sx, sy) => aligned sx sy g
    end.
Proof.
  intros H V Ht Hnx Hny.
  destruct (cog_yx_inv _ _ _ _ _ _ _ _ _ _ _ _ _ H) as (na & m & Ha & -> & A1 & A2 & AA & Hm).
  destruct (yx_res_spec B ny nx V Hnx Hny) as ([Px Lx] & Ry & [Py Ly]). rewrite Ry in A2.
  assert (Ex : Qabs (aa m) == yx_rx B nx) by (rewrite A1; apply Qabs_pos; lra).
  assert (Ey : Qabs (ae m) == span_y B / inject_Z ny) by (rewrite A2, Qabs_opp; apply Qabs_pos; lra).
  unfold px, py, g_x0, g_y0. cbn [g_aff g_nx g_ny g_crs].
  split; [reflexivity|]. split; [reflexivity|]. split; [reflexivity|]. split; [exact AA|].
  split; [exact A1|]. split; [exact A2|].
  destruct (snap_of tight na) as [[sx sy]|] eqn:Es.
  - destruct Hm as (g' & Hb & ->). destruct (build_props _ _ _ _ _ _ _ Hb) as (_ & _ & _ & _ & P).
    specialize (P V Ht). pose proof (grid_alignment _ _ _ _ P) as AL. destruct P as [PX PY].
    apply axis_props_near in PX; [|lra]. apply axis_props_near in PY; [|lra].
    rewrite (proj2 (Qltb_true 0 _)) in PX by lra. rewrite (proj2 (Qltb_false 0 _)) in PY by lra.
    split; [exact PX|]. split; [exact PY|]. exists na. rewrite Es. auto.
  - destruct Hm as [M1 M2]. split; [apply Qabs_Qlt_condition; lra|]. split; [apply Qabs_Qlt_condition; lra|].
    exists na. rewrite Es. auto.
Qed.

Lemma snap_grid_none_count x0 x1 rs tol tx c (n : Z) :
  snap_grid x0 x1 rs None tol = Ok (tx, c) -> (1 <= n)%Z ->
  x1 - x0 == inject_Z n * Qabs rs -> c = n.
Proof.
  intros H%snap_grid_ok Hn E. destruct (snap_grid_ok_inv _ _ _ _ _ _ H) as [Hr _].
  rewrite (snap_grid_none_exact x0 x1 rs tol n Hn Hr E) in H. injection H as _ <-. reflexivity.
Qed.

Lemma longest_res_cases B n :
  valid_box B -> (0 < n)%Z ->
  0 < longest_res B n /\
  (span_y B < span_x B -> longest_res B n == span_x B / inject_Z n) /\
  (span_x B <= span_y B -> longest_res B n == span_y B / inject_Z n).
Proof.
  intros [Vx Vy] Hn%Zlt_le_succ%inject_Z_ge1.
  assert (Sx : 0 < span_x B) by (unfold span_x; lra).
  assert (Sy : 0 < span_y B) by (unfold span_y; lra).
  assert (Qd : span_x B == (span_x B / span_y B) * span_y B) by (field; lra).
  unfold longest_res. destruct (Qltb 1 (span_x B / span_y B)) eqn:E.
  - apply Qltb_true in E. split; [apply Qlt_shift_div_l; lra|].
    split; [reflexivity|]. intros C. exfalso. nra.
  - apply Qltb_false in E. split; [apply Qlt_shift_div_l; lra|].
    split; [intros C; exfalso; nra|reflexivity].
Qed.

Lemma count_bounds x0 x1 a tol lo hi (c n : Z) :
  fits x0 x1 a tol lo hi c -> tol < 1 # 2 -> (1 <= n)%Z -> x1 - x0 == inject_Z n * a ->
  (n <= c <= n + 1)%Z.
Proof.
  intros (_ & Ha & Eh & L1 & _ & L2 & H1 & _ & H2) Ht Hn Es.
  (* [c * a = hi - lo]: the two cover bounds with [tol < 1/2] give [(n - 1) * a < c * a],
     the two bounds on the spare [c * a < (n + 2) * a] *)
  assert (G1 : inject_Z (n - 1) < inject_Z c) by (rewrite inject_Z_sub, inj1; nra).
  rewrite <- Zlt_Qlt in G1. destruct H2 as [H2|H2]; [|lia].
  assert (G2 : inject_Z c < inject_Z (n + 2)) by (rewrite inject_Z_plus; change (inject_Z 2) with 2; nra).
  rewrite <- Zlt_Qlt in G2. lia.
Qed.

(** pixel count along the longest side of the footprint box *)
Definition longest_count (B : bbox) (g : gbox) : Z :=
  if Qltb (span_y B) (span_x B) then g_nx g else g_ny g.

Lemma cog_shape_n s dst du B fit rq n tight anc tol rr g :
  compute_output_geobox s dst du B fit rq (Some (ShapeN n)) tight anc tol rr = Ok (ONew g) ->
  valid_box B -> 0 <= tol -> (0 < n)%Z ->
  0 < aa (g_aff g) /\ ae (g_aff g) == - aa (g_aff g) /\
  (span_y B < span_x B -> aa (g_aff g) == span_x B / inject_Z n) /\
  (span_x B <= span_y B -> aa (g_aff g) == span_y B / inject_Z n) /\
  (tol < 1 # 2 -> (n <= longest_count B g <= n + 1)%Z) /\
  (forall na, norm_anchor anc = Ok na -> snap_of tight na = None -> longest_count B g = n).
Proof.
  intros H V Ht Hn.
  destruct (cog_build _ _ _ _ _ _ _ _ _ _ _ _ H I) as (na & rx & ry & Ha & Hb & -> & ->).
  destruct (build_props _ _ _ _ _ _ _ Hb) as (_ & _ & A1 & A2 & P).
  destruct (longest_res_cases B n V Hn) as (L0 & L1 & L2). pose proof (inject_Z_ge1 n (Zlt_le_succ 0 n Hn)) as Pn.
  assert (Ex : span_y B < span_x B -> br B - bl B == inject_Z n * Qabs (aa (g_aff g))).
  { intros E. rewrite A1, Qabs_pos, (L1 E), Qmult_div_r by lra. reflexivity. }
  assert (Ey : span_x B <= span_y B -> bt B - bb B == inject_Z n * Qabs (ae (g_aff g))).
  { intros E. rewrite A2, Qabs_opp, Qabs_pos, (L2 E), Qmult_div_r by lra. reflexivity. }
  split; [rewrite A1; exact L0|]. split; [rewrite A1; exact A2|].
  split; [intros E; rewrite A1; exact (L1 E)|]. split; [intros E; rewrite A1; exact (L2 E)|].
  unfold longest_count. split.
  - intros Ht2. destruct (P V Ht) as [PX%axis_props_edges PY%axis_props_edges].
    destruct (Qltb (span_y B) (span_x B)) eqn:E.
    + apply Qltb_true in E. exact (count_bounds _ _ _ _ _ _ _ n PX Ht2 ltac:(lia) (Ex E)).
    + apply Qltb_false in E. exact (count_bounds _ _ _ _ _ _ _ n PY Ht2 ltac:(lia) (Ey E)).
  - intros na' Ha' Hs. rewrite Ha in Ha'. injection Ha' as <-.
    apply build_inv in Hb as (offx & nx & offy & ny & H1 & H2 & ->). rewrite Hs in H1, H2.
    cbn [g_nx g_ny g_aff] in *. destruct (Qltb (span_y B) (span_x B)) eqn:E.
    + apply Qltb_true in E. apply (snap_grid_none_count _ _ _ _ _ _ n H1); [lia|].
      rewrite <- A1. exact (Ex E).
    + apply Qltb_false in E. apply (snap_grid_none_count _ _ _ _ _ _ n H2); [lia|].
      rewrite <- A2. exact (Ey E).
Qed.

Definition anchor_valid (anc : anchor) : Prop :=
  match norm_anchor anc with
  | Ok (NXY x y) => (0 <= x /\ x < 1) /\ (0 <= y /\ y < 1)
  | Ok _ => True
  | Err _ => False
  end.

Definition shape_valid (shape : option shape_req) : Prop :=
  match shape with
  | None => True
  | Some (ShapeN n) => (0 < n)%Z
  | Some (ShapeYX ny nx) => (0 < ny)%Z /\ (0 < nx)%Z
  end.

Lemma snap_of_ok tight na :
  match na with NXY x y => (0 <= x /\ x < 1) /\ (0 <= y /\ y < 1) | _ => True end ->
  off_ok (option_map fst (snap_of tight na)) /\ off_ok (option_map snd (snap_of tight na)).
Proof.
  intros H. destruct tight; [simpl; auto|].
  destruct na; simpl; try (split; [split|split]; lra); auto.
Qed.

Lemma cog_total s dst du B fit rq shape tight anc tol rr :
  valid_box B -> 0 <= tol -> anchor_valid anc -> shape_valid shape ->
  (shape = None -> exists rx ry, chosen s du fit rq rr = Ok (rx, ry) /\ ~ rx == 0 /\ ~ ry == 0) ->
  exists o, compute_output_geobox s dst du B fit rq shape tight anc tol rr = Ok o.
Proof.
  intros V Ht Ha Hs Hr. rewrite cog_unfold.
  destruct (shortcut s dst rq shape anc); [eauto|].
  unfold anchor_valid in Ha. destruct (norm_anchor anc) as [na|] eqn:En; [|contradiction].
  destruct (snap_of_ok tight na) as [O1 O2]. { destruct na; auto. }
  assert (BT : forall rx ry, ~ rx == 0 -> ~ ry == 0 -> exists g, build B dst (snap_of tight na) rx ry tol = Ok g).
  { intros rx ry Hx Hy. apply build_total; assumption. }
  assert (Sy : 0 < span_y B) by (destruct V; unfold span_y; lra).
  destruct shape as [[n|ny nx]|].
  - rewrite choose_resolution_shape. cbn [bind]. rewrite from_bbox_eq, En. cbn [bind].
    simpl in Hs. destruct (longest_res_cases B n V Hs) as (L0 & _ & _).
    rewrite (Qeq_bool_false (span_y B) 0), (proj2 (Z.eqb_neq n 0)) by (lra || lia). cbn [negb guard bind].
    destruct (BT (longest_res B n) (- longest_res B n)) as (g & ->); try lra. cbn [bind]. eauto.
  - rewrite choose_resolution_shape. cbn [bind]. rewrite from_bbox_eq, En. cbn [bind].
    destruct Hs as [Hny Hnx].
    rewrite (proj2 (Z.eqb_neq nx 0)), (proj2 (Z.eqb_neq ny 0)) by lia. cbn [negb guard bind].
    destruct (snap_of tight na) as [[sx sy]|]; [|cbn [bind]; eauto].
    destruct (yx_res_spec B ny nx V Hnx Hny) as ([Px _] & Ry & [Py _]).
    destruct (BT (yx_rx B nx) (yx_ry B ny)) as (g & ->); [lra|rewrite Ry; lra|]. cbn [bind]. eauto.
  - destruct (Hr eq_refl) as (rx & ry & Hc & Hx & Hy).
    rewrite choose_resolution_none, Hc. cbn [bind]. rewrite from_bbox_eq, En. cbn [bind].
    destruct (BT rx ry Hx Hy) as (g & ->). cbn [bind]. eauto.
Qed.

Lemma round_half_even_spec x :
  let z := inject_Z (round_half_even x) in
  x - (1 # 2) <= z /\ z <= x + (1 # 2) /\
  ((z == x - (1 # 2) \/ z == x + (1 # 2)) -> Z.even (round_half_even x) = true).
Proof.
  unfold round_half_even. cbv zeta. destruct (Qfloor_spec x) as (f & -> & F1 & F2).
  assert (P : inject_Z (Qfloor x + 1) == inject_Z (Qfloor x) + 1) by (rewrite inject_Z_plus; reflexivity).
  destruct (Qltb (x - inject_Z (Qfloor x)) (1 # 2)) eqn:E1; [apply Qltb_true in E1|apply Qltb_false in E1].
  - split; [lra|]. split; [lra|]. intros [C|C]; lra.
  - destruct (Qltb (1 # 2) _) eqn:E2; [apply Qltb_true in E2|apply Qltb_false in E2].
    + split; [lra|]. split; [lra|]. intros [C|C]; lra.
    + destruct (Z.even (Qfloor x)) eqn:E3; (split; [lra|]); (split; [lra|]); intros _; [exact E3|].
      rewrite Z.add_1_r, Z.even_succ, <- Z.negb_even, E3. reflexivity.
Qed.

Lemma first_max_spec l : forall b,
  In (first_max b l) (b :: l) /\ forall c, In c (b :: l) -> snd c <= snd (first_max b l).
Proof.
  induction l as [|c l IH]; intros b; cbn [first_max].
  - split; [left; reflexivity|]. intros c [<-|[]]. lra.
  - set (b' := if Qltb (snd b) (snd c) then c else b).
    assert (M : (b' = b \/ b' = c) /\ snd b <= snd b' /\ snd c <= snd b').
    { unfold b'. destruct (Qltb (snd b) (snd c)) eqn:E;
        [apply Qltb_true in E|apply Qltb_false in E]; (split; [auto|lra]). }
    destruct M as (Mb & M1 & M2), (IH b') as [I1 I2]. pose proof (I2 b' (or_introl eq_refl)) as I3. split.
    + destruct I1 as [<-|I1]; [destruct Mb as [->| ->]|]; simpl; auto.
    + intros c' [<-|[<-|Hc]]; [lra|lra|apply I2; right; exact Hc].
Qed.

Lemma pick_best_spec cands big e :
  pick_best_crs cands big = Ok e ->
  exists c, In c cands /\ fst c = e /\
            (big = true -> forall c', In c' cands -> snd c' <= snd c).
Proof.
  unfold pick_best_crs. destruct cands as [|c rest]; [discriminate|].
  destruct ((1 <? Z.of_nat (length (c :: rest)))%Z && big) eqn:E.
  - intros H. injection H as <-. destruct (first_max_spec rest c) as [I1 I2].
    exists (first_max c rest). split; [exact I1|]. split; [reflexivity|]. intros _. exact I2.
  - intros H. injection H as <-. exists c. split; [left; reflexivity|]. split; [reflexivity|].
    intros ->. rewrite andb_true_r in E. apply Z.ltb_ge in E.
    destruct rest; [|simpl length in E; lia].
    intros c' [<-|[]]. lra.
Qed.

Lemma pick_best_empty big : pick_best_crs [] big = Err EValue.
Proof. reflexivity. Qed.

(** contract on pyproj's database for the candidates: each is WGS84 / UTM
    zone [zone e] north (EPSG 326zz, letter N) or south (EPSG 327zz, letter S) *)
Definition utm_db_ok (cands : list (Z * Q)) (letter : Z -> zone_letter) (zone : Z -> Z) : Prop :=
  forall e, In e (map fst cands) ->
    (letter e = ZN /\ e = (32600 + zone e)%Z) \/ (letter e = ZS /\ e = (32700 + zone e)%Z).
