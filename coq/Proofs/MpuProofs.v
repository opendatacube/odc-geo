(** Proofs for C06: the chunk invariant of the multi-part-upload protocol, its
    preservation by append / maybe_write / merge, its lift to every merge tree and
    the end-to-end theorem about [mpu_write]. *)
From Coq Require Import ZArith List Bool Lia Permutation Sorted.
From OG Require Import Base.Result Base.ListSel Model.Mpu.
Import ListNotations.
Open Scope Z_scope.

Lemma len_take_le {X} n (l : list X) : 0 <= n <= len l -> len (take n l) = n.
Proof. intros; rewrite len_take by lia; lia. Qed.

Lemma len_drop_le {X} n (l : list X) : 0 <= n <= len l -> len (drop n l) = len l - n.
Proof. intros; rewrite len_drop by lia; lia. Qed.

Lemma drop_drop {X} a b (l : list X) : 0 <= a -> 0 <= b -> drop a (drop b l) = drop (a + b) l.
Proof.
  intros; unfold drop. apply nth_error_ext; intros i.
  rewrite !nth_error_skipn. f_equal. lia.
Qed.

Lemma nil_or_not {X} (l : list X) : l = [] \/ l <> [].
Proof. destruct l; [left; reflexivity | right; discriminate]. Qed.

Lemma len_zero_nil {X} (l : list X) : len l <= 0 -> l = [].
Proof. destruct l; auto; unfold len; simpl; lia. Qed.

Lemma drop_all {X} (l : list X) : drop (len l) l = [].
Proof. apply len_zero_nil; pose proof (len_nonneg l); rewrite len_drop by lia; lia. Qed.

Lemma take_all {X} (l : list X) : take (len l) l = l.
Proof. unfold take, len. rewrite Nat2Z.id. apply firstn_all. Qed.

Lemma isnil_true {X} (l : list X) : isnil l = true <-> l = [].
Proof. destruct l; simpl; split; congruence. Qed.

Lemma isnil_false {X} (l : list X) : isnil l = false <-> l <> [].
Proof. destruct l; simpl; split; congruence. Qed.

Lemma len_nil_iff {X} (l : list X) : l <> [] -> 0 < len l.
Proof. destruct l; [congruence|]; unfold len; simpl; lia. Qed.

Fixpoint incr_from (lo : Z) (l : list Z) (nx : Z) : Prop :=
  match l with [] => lo <= nx | x :: l' => lo <= x /\ incr_from (x + 1) l' nx end.

Lemma incr_from_le lo l nx : incr_from lo l nx -> lo <= nx.
Proof. revert lo; induction l as [|x l IH]; simpl; intros lo H; [lia|]. destruct H as [H1 H2%IH]. lia. Qed.

Lemma incr_from_weaken lo lo' l nx nx' :
  lo' <= lo -> nx <= nx' -> incr_from lo l nx -> incr_from lo' l nx'.
Proof.
  revert lo lo'; induction l as [|x l IH]; simpl; intros lo lo' H1 H2 H; [lia|].
  destruct H as [Ha Hb]; split; [lia|]. eapply IH; eauto; lia.
Qed.

Lemma incr_from_app lo l1 mid l2 nx :
  incr_from lo l1 mid -> incr_from mid l2 nx -> incr_from lo (l1 ++ l2) nx.
Proof.
  revert lo; induction l1 as [|x l1 IH]; simpl; intros lo H1 H2.
  - eapply incr_from_weaken; [exact H1|apply Z.le_refl|exact H2].
  - destruct H1 as [Ha Hb]; split; auto.
Qed.

Lemma incr_from_range lo l nx : incr_from lo l nx -> Forall (fun x => lo <= x < nx) l.
Proof.
  revert lo; induction l as [|x l IH]; simpl; intros lo H; constructor; destruct H as [Ha Hb].
  - apply incr_from_le in Hb. lia.
  - eapply Forall_impl; [|exact (IH _ Hb)]. simpl; intros; lia.
Qed.

Lemma incr_from_sorted lo l nx : incr_from lo l nx -> StronglySorted Z.lt l.
Proof.
  revert lo; induction l as [|x l IH]; simpl; intros lo H; constructor; destruct H as [_ Hb].
  - exact (IH _ Hb).
  - eapply Forall_impl; [|exact (incr_from_range _ _ _ Hb)]. simpl; intros; lia.
Qed.

Section Proofs.
Context {A CI : Type}.
Notation chunk := (chunk A CI).
Notation part := (part A).
Notation tree := (tree A CI).
Variable pw : writer.
Hypothesis Hminw : 0 <= minw pw.

Definition big (p : part) : Prop := minw pw <= len (snd p).
Definition pbytes (ps : list part) : list A := concat (map snd ps).
Definition pids (ps : list part) : list Z := map fst ps.

Lemma pbytes_app a b : pbytes (a ++ b) = pbytes a ++ pbytes b.
Proof. unfold pbytes; rewrite map_app, concat_app; reflexivity. Qed.

Lemma pbytes_one x (d : list A) : pbytes [(x, d)] = d.
Proof. unfold pbytes; simpl; apply app_nil_r. Qed.

Lemma pids_app a b : pids (a ++ b) = pids a ++ pids b.
Proof. apply map_app. Qed.

Lemma pids_snoc lo ps n (d : list A) nx :
  incr_from lo (pids ps) n -> n < nx -> incr_from lo (pids (ps ++ [(n, d)])) nx.
Proof. intros H Hn. rewrite pids_app. eapply incr_from_app; [exact H|]. simpl; lia. Qed.

(* The invariant: chunk [c] stands for stream segment [seg] (observed log
   [obs]), owns part numbers [lo, hi), and is final iff [fin]. *)
Record Inv (lo hi : Z) (seg : list A) (obs : list (Z * option CI)) (fin : bool) (c : chunk) : Prop := {
  i_content : left c ++ pbytes (parts c) ++ data c = seg;
  i_obs : observed c = obs;
  i_fin : final c = fin;
  i_keep : keep c = minw pw;
  i_lo : lo <= next c;
  i_hi : next c + credits c = hi;
  i_cred : 0 <= credits c;
  i_ids : incr_from lo (pids (parts c)) (next c);
  i_big : Forall big (parts c);
  i_ns : parts c = [] -> left c = [] /\ next c = lo;
  (* once a part is written, what surrounds the written bytes must stay uploadable: [left]
     is a full part (for the left neighbour, or the final flush); a chunk that is not the
     last keeps one part number and [minw] bytes (the comment at maybe_write in _mpu.py),
     the last one a part number for its remaining data, which may be short *)
  i_st : parts c <> [] ->
         minw pw <= len (left c) /\
         if fin then 1 <= credits c \/ data c = []
         else 1 <= credits c /\ minw pw <= len (data c)
}.

Lemma started_nil (c : chunk) : parts c = [] -> started c = false.
Proof. unfold started; intros ->; reflexivity. Qed.

Lemma started_cons (c : chunk) : parts c <> [] -> started c = true.
Proof. unfold started; destruct (parts c); [congruence|reflexivity]. Qed.

Lemma append_inv lo hi seg obs c d id :
  Inv lo hi seg obs false c ->
  Inv lo hi (seg ++ d) (obs ++ [(len d, id)]) false (append c d id).
Proof.
  intros [Hc Ho Hf Hk Hlo Hhi Hcr Hids Hbig Hns Hst].
  constructor; cbn [append next credits data left parts observed final keep]; auto.
  - rewrite <- Hc, <- !app_assoc. reflexivity.
  - rewrite Ho; reflexivity.
  - intros Hp. destruct (Hst Hp) as (H1 & H2 & H3).
    rewrite len_app. pose proof (len_nonneg d). lia.
Qed.

(* maybe_write as repaired (never below the minimum part size), one formula for
   both branches of the code: a chunk that has not written yet reserves its first
   [keep] bytes for the left neighbour ([lk = keep]), a started one reserves
   nothing ([lk = 0], and [take 0] / [drop 0] vanish). *)
Lemma maybe_write_eq spill (c : chunk) :
  (parts c = [] -> left c = []) -> 0 <= keep c ->
  let rk := if final c then 0 else minw pw in
  let lk := if started c then 0 else keep c in
  let btw := len (data c) - rk - lk in
  maybe_write fixed pw spill c =
    if (credits c - 1 <? (if final c then 0 else 1)) || (btw <? Z.max spill (minw pw))
    then Ok (c, [])
    else let p := (next c, take btw (drop lk (data c))) in
         Ok (mk (next c + 1) (credits c - 1) (drop (btw + lk) (data c)) (left c ++ take lk (data c))
                (parts c ++ [p]) (observed c) (final c) (keep c), [p]).
Proof.
  intros Hns Hk rk lk btw. unfold maybe_write. cbn [fx_spill_min fixed]. fold rk lk btw.
  destruct (credits c - 1 <? _); [reflexivity|].
  destruct (Z.ltb_spec btw (Z.max spill (minw pw))) as [|Hb]; [reflexivity|]. cbn [orb].
  assert (Hrk : 0 <= rk) by (unfold rk; destruct (final c); lia).
  assert (Hlen : len (take btw (drop lk (data c))) =? btw = true).
  { assert (0 <= lk) by (unfold lk; destruct (started c); lia).
    apply Z.eqb_eq. rewrite len_take_le; [reflexivity|]. rewrite len_drop_le; lia. }
  destruct (Z.eqb_spec lk 0) as [E|E].
  - rewrite E in *. change (drop 0 (data c)) with (data c) in Hlen.
    rewrite Hlen, Z.add_0_r. cbn [guard bind]. change (take 0 (data c)) with (@nil A).
    rewrite app_nil_r. reflexivity.
  - assert (Hl : left c = []).
    { apply Hns. destruct (nil_or_not (parts c)) as [Hp|Hp]; [exact Hp|].
      unfold lk in E. rewrite (started_cons c Hp) in E. contradiction. }
    rewrite Hl, Hlen. reflexivity.
Qed.

(* [maybe_write] keeps the invariant and appends exactly the part it logs.  With
   [maybe_write_eq] there is one write to check: the branches differ only in [lk], which is
   0 with [left] already a full part, or [minw] with [left] and [parts] empty ([Hlk]). *)
Lemma maybe_write_inv {lo hi seg obs fin c} spill :
  Inv lo hi seg obs fin c ->
  exists c' log, maybe_write fixed pw spill c = Ok (c', log) /\
                 Inv lo hi seg obs fin c' /\ parts c' = parts c ++ log.
Proof.
  intros HI. pose proof HI as [Hc Ho Hf Hk Hlo Hhi Hcr Hids Hbig Hns Hst].
  rewrite maybe_write_eq by (try apply Hns; lia). rewrite Hf.
  set (rk := if fin then 0 else minw pw).
  set (lk := if started c then 0 else keep c).
  set (btw := len (data c) - rk - lk).
  destruct (Z.ltb_spec (credits c - 1) (if fin then 0 else 1)) as [|Hcr1];
    [|destruct (Z.ltb_spec btw (Z.max spill (minw pw))) as [|Hb]]; cbn [orb].
  1, 2: exists c, []; rewrite app_nil_r; auto.
  assert (Hlk : lk = 0 /\ minw pw <= len (left c) \/ lk = minw pw /\ left c = [] /\ parts c = []).
  { unfold lk. destruct (nil_or_not (parts c)) as [Hp|Hp].
    - right. rewrite (started_nil c Hp). split; [exact Hk|]. split; [apply Hns, Hp | exact Hp].
    - left. rewrite (started_cons c Hp). split; [reflexivity | apply Hst, Hp]. }
  assert (Hlen : btw + lk + rk = len (data c)) by (unfold btw; lia).
  assert (Hrk : 0 <= rk) by (unfold rk; destruct fin; lia).
  assert (Hcr2 : 0 <= credits c - 1) by (destruct fin; lia).
  eexists _, _. split; [reflexivity|]. split; [|reflexivity].
  constructor; cbn [next credits data left parts observed final keep]; auto; try lia.
  - assert (Hd : take lk (data c) ++ take btw (drop lk (data c)) ++ drop (btw + lk) (data c) = data c).
    { rewrite <- (drop_drop btw lk) by lia. rewrite take_drop. apply take_drop. }
    rewrite pbytes_app, pbytes_one, <- Hc, <- !app_assoc. f_equal.
    destruct Hlk as [[E _]|(_ & _ & Hp)].
    + rewrite E in Hd |- *. change (take 0 (data c)) with (@nil A). cbn [app]. f_equal. exact Hd.
    + rewrite Hp. exact Hd.
  - apply pids_snoc; [exact Hids | lia].
  - apply Forall_app; split; [exact Hbig|]. constructor; [|constructor].
    unfold big; cbn [snd]. rewrite len_take_le; [lia|]. rewrite len_drop_le; lia.
  - intros Hp. destruct (app_cons_not_nil _ _ _ (eq_sym Hp)).
  - intros _. rewrite len_app, len_take_le, len_drop_le by lia. pose proof (len_nonneg (left c)).
    split; [lia|]. unfold rk in Hlen. destruct fin; [|lia].
    destruct (Z.eq_dec (credits c) 1); [right; apply len_zero_nil; rewrite len_drop_le; lia | left; lia].
Qed.

Lemma append_loop_inv spill cs : forall lo hi seg obs c,
  Inv lo hi seg obs false c ->
  exists c' log, append_loop fixed (Some pw) spill c cs = Ok (c', log) /\
                 Inv lo hi (seg ++ bytes_of cs) (obs ++ obs_of cs) false c' /\
                 parts c' = parts c ++ log.
Proof.
  induction cs as [|[d id] cs IH]; intros lo hi seg obs c HI.
  - exists c, []. simpl. unfold bytes_of, obs_of; simpl. rewrite !app_nil_r. auto.
  - cbn [append_loop].
    pose proof (append_inv _ _ _ _ _ d id HI) as H1.
    assert (exists c2 log2,
      (if 0 <? spill then maybe_write fixed pw spill (append c d id) else Ok (append c d id, []))
      = Ok (c2, log2) /\ Inv lo hi (seg ++ d) (obs ++ [(len d, id)]) false c2 /\
      parts c2 = parts (append c d id) ++ log2) as (c2 & log2 & E2 & I2 & P2).
    { destruct (0 <? spill).
      - apply maybe_write_inv; auto.
      - eexists _, _. split; [reflexivity|]. rewrite app_nil_r. auto. }
    rewrite E2. cbn [bind fst snd].
    destruct (IH _ _ _ _ _ I2) as (c3 & log3 & E3 & I3 & P3).
    rewrite E3. cbn [bind fst snd].
    eexists _, _. split; [reflexivity|]. split.
    + unfold bytes_of, obs_of in *. simpl. rewrite <- !app_assoc in I3. simpl in I3. exact I3.
    + rewrite P3, P2. cbn [append parts]. rewrite app_assoc. reflexivity.
Qed.

Lemma set_final_inv lo hi seg obs fin c :
  Inv lo hi seg obs false c -> Inv lo hi seg obs fin (set_final c fin).
Proof.
  intros [Hc Ho Hf Hk Hlo Hhi Hcr Hids Hbig Hns Hst].
  constructor; cbn [set_final next credits data left parts observed final keep]; auto.
  intros Hp. destruct (Hst Hp) as (H1 & H2 & H3). destruct fin; auto.
Qed.

Lemma fresh_inv lo wpc fin : 1 <= wpc ->
  Inv lo (lo + wpc) [] [] false (set_final (fresh lo wpc fin (minw pw)) false).
Proof.
  intros H. constructor; cbn; auto; try lia; try congruence.
Qed.

Lemma leaf_inv spill lo wpc fin cs : 1 <= wpc ->
  exists c log, append_chunks fixed (Some pw) spill (fresh lo wpc fin (minw pw)) cs = Ok (c, log) /\
                Inv lo (lo + wpc) (bytes_of cs) (obs_of cs) fin c /\ parts c = log.
Proof.
  intros Hw. unfold append_chunks. cbn [fx_final_loop fixed].
  destruct (append_loop_inv spill cs _ _ _ _ _ (fresh_inv lo wpc fin Hw)) as (c & log & E & I & P).
  rewrite E. cbn [bind fst snd].
  eexists _, _. split; [reflexivity|]. split.
  - apply set_final_inv. exact I.
  - cbn. exact P.
Qed.

Lemma flush_data_started (c : chunk) d :
  minp pw <= next c <= maxp pw -> parts c <> [] ->
  flush_data pw c d =
    Ok (mk (next c + 1) (credits c - 1) [] (left c) (parts c ++ [(next c, d)])
           (observed c) (final c) (keep c), [(next c, d)]).
Proof.
  intros [Hn1 Hn2] Hp. unfold flush_data.
  rewrite (started_cons c Hp), (proj2 (Z.leb_le _ _) Hn1), (proj2 (Z.leb_le _ _) Hn2). reflexivity.
Qed.

Lemma flush_data_fresh (c : chunk) d :
  minp pw <= next c <= maxp pw -> parts c = [] -> left c = [] -> 0 <= keep c ->
  flush_data pw c d =
    Ok (mk (next c + 1) (credits c - 1) [] (take (keep c) d) (parts c ++ [(next c, drop (keep c) d)])
           (observed c) (final c) (keep c), [(next c, drop (keep c) d)]).
Proof.
  intros [Hn1 Hn2] Hp Hl Hk. unfold flush_data.
  rewrite (started_nil c Hp), Hl, (proj2 (Z.leb_le _ _) Hn1), (proj2 (Z.leb_le _ _) Hn2).
  cbn [guard bind negb andb]. destruct (Z.ltb_spec 0 (keep c)); [reflexivity|].
  replace (keep c) with 0 by lia. reflexivity.
Qed.

Lemma flush_rhs_started (c : chunk) e :
  parts c <> [] -> 1 <= credits c -> minp pw <= next c <= maxp pw ->
  final c = true \/ minw pw <= len (data c ++ e) ->
  flush_rhs (Some pw) c e =
    Ok (mk (next c + 1) (credits c - 1) [] (left c) (parts c ++ [(next c, data c ++ e)])
           (observed c) (final c) (keep c), [(next c, data c ++ e)]).
Proof.
  intros Hp Hc Hn Hf. unfold flush_rhs, can_flush. rewrite (started_cons c Hp).
  destruct (Z.ltb_spec (credits c) 1); [lia|].
  replace (final c || (minw pw <=? len (data c ++ e))) with true.
  - apply flush_data_started; assumption.
  - symmetry. destruct Hf as [-> | Hf]; [reflexivity | apply orb_true_iff; right; apply Z.leb_le, Hf].
Qed.

(* The left operand of a merge whose right operand has written: it writes one
   more part if it may, else all its bytes become left-over; either way its
   data and the [e] bytes handed over (at least a minimal part) end up in
   left ++ parts, and the left-over is at least a minimal part. *)
Lemma flush_rhs_inv lo hi seg obs l e :
  minp pw <= lo -> hi <= maxp pw + 1 ->
  Inv lo hi seg obs false l -> minw pw <= len e ->
  exists c log, flush_rhs (Some pw) l e = Ok (c, log) /\
    left c ++ pbytes (parts c) = seg ++ e /\ parts c = parts l ++ log /\
    incr_from lo (pids (parts c)) hi /\ Forall big (parts c) /\ minw pw <= len (left c).
Proof.
  intros Hlo0 Hhi0 [Lc Lo Lf Lk Llo Lhi Lcr Lids Lbig Lns Lst] He.
  pose proof (len_nonneg (data l)) as Hdl.
  destruct (nil_or_not (parts l)) as [Lp|Lp].
  - destruct (Lns Lp) as [Ll Ln].
    assert (Hseg : data l ++ e = seg ++ e) by (rewrite <- Lc, Ll, Lp; reflexivity).
    unfold flush_rhs, can_flush. rewrite (started_nil l Lp), Lf.
    destruct (if credits l <? 1 then false else minw pw <=? len (data l ++ e) - keep l) eqn:Ecf.
    + destruct (Z.ltb_spec (credits l) 1); [discriminate|]. apply Z.leb_le in Ecf.
      rewrite len_app in Ecf.
      rewrite flush_data_fresh by (assumption || lia).
      eexists _, _. split; [reflexivity|]. cbn [left parts]. rewrite Lp. cbn [app].
      split; [rewrite pbytes_one, take_drop; exact Hseg|]. split; [reflexivity|].
      split; [cbn; lia|]. split.
      * constructor; [|constructor]. unfold big; cbn [snd]. rewrite len_drop_le; rewrite ?len_app; lia.
      * rewrite len_take_le; rewrite ?len_app; lia.
    + eexists _, _. split; [reflexivity|]. cbn [moved left parts]. rewrite Lp, Ll. cbn [app].
      split; [rewrite app_nil_r; exact Hseg|]. split; [reflexivity|].
      split; [cbn; lia|]. split; [constructor|]. rewrite len_app; lia.
  - destruct (Lst Lp) as (Lleft & Lc1 & Ldata).
    assert (Hn : minp pw <= next l <= maxp pw) by lia.
    assert (Hd : final l = true \/ minw pw <= len (data l ++ e))
      by (right; rewrite len_app; pose proof (len_nonneg e); lia).
    rewrite (flush_rhs_started l e Lp Lc1 Hn Hd).
    eexists _, _. split; [reflexivity|]. cbn [left parts].
    split; [rewrite pbytes_app, pbytes_one, <- Lc, <- !app_assoc; reflexivity|].
    split; [reflexivity|]. split; [|split; [|exact Lleft]].
    + apply pids_snoc; [exact Lids | lia].
    + apply Forall_app; split; [exact Lbig|]. constructor; [|constructor].
      unfold big; cbn [snd]. destruct Hd; [congruence | assumption].
Qed.

Lemma merge_inv {lo mid hi seg1 seg2 obs1 obs2 fin l r} :
  minp pw <= lo -> hi <= maxp pw + 1 ->
  Inv lo mid seg1 obs1 false l -> Inv mid hi seg2 obs2 fin r -> obs1 <> [] ->
  exists c log, merge (Some pw) l r = Ok (c, log) /\
                Inv lo hi (seg1 ++ seg2) (obs1 ++ obs2) fin c /\
                Permutation (parts c) (parts l ++ parts r ++ log).
Proof.
  intros Hlo0 Hhi0 HL HR Hobs.
  pose proof HL as [Lc Lo Lf Lk Llo Lhi Lcr Lids Lbig Lns Lst].
  destruct HR as [Rc Ro Rf Rk Rlo Rhi Rcr Rids Rbig Rns Rst].
  assert (Hon : isnil (observed l ++ observed r) = false).
  { apply isnil_false. rewrite Lo. intros H. apply app_eq_nil in H. tauto. }
  unfold merge. destruct (nil_or_not (parts r)) as [Rp|Rp].
  - (* right side has not written: concatenate *)
    destruct (Rns Rp) as [Rl Rn].
    rewrite (started_nil r Rp), Rl. cbn [negb isnil guard bind]. rewrite Hon. cbn [negb guard bind].
    eexists _, _. split; [reflexivity|]. split.
    + constructor; cbn [next credits data left parts observed final keep]; auto; try lia.
      * rewrite <- Lc, <- Rc, Rl, Rp, <- !app_assoc. reflexivity.
      * rewrite Lo, Ro; reflexivity.
      * intros Hp. destruct (Lst Hp) as (H1 & H2 & H3). split; [exact H1|].
        destruct fin; [left; lia|]. rewrite len_app. pose proof (len_nonneg (data r)). lia.
    + cbn [parts]. rewrite Rp, !app_nil_r. reflexivity.
  - (* right side has written: the left side flushes, its left-over becomes the result's *)
    destruct (Rst Rp) as (Rleft & Rcd).
    destruct (flush_rhs_inv lo mid seg1 obs1 l (left r) Hlo0 ltac:(lia) HL Rleft)
      as (c & log & E & Hc & Hp & Hids & Hbig & Hleft).
    rewrite (started_cons r Rp), E. cbn [negb bind fst snd]. rewrite Hon. cbn [negb guard bind].
    eexists _, _. split; [reflexivity|]. split.
    + constructor; cbn [next credits data left parts observed final keep]; auto; try lia.
      * rewrite pbytes_app, <- Rc, <- !app_assoc, (app_assoc (left c)), Hc, <- !app_assoc. reflexivity.
      * rewrite Lo, Ro; reflexivity.
      * rewrite pids_app. eapply incr_from_app; eassumption.
      * apply Forall_app; split; assumption.
      * intros H. destruct (Rp (proj2 (app_eq_nil _ _ H))).
    + cbn [parts]. rewrite Hp, <- app_assoc. apply Permutation_app_head, Permutation_app_comm.
Qed.

Lemma merge_and_spill_inv spill {lo mid hi seg1 seg2 obs1 obs2 fin l r} :
  minp pw <= lo -> hi <= maxp pw + 1 ->
  Inv lo mid seg1 obs1 false l -> Inv mid hi seg2 obs2 fin r -> obs1 <> [] ->
  exists c log, merge_and_spill fixed (Some pw) spill l r = Ok (c, log) /\
                Inv lo hi (seg1 ++ seg2) (obs1 ++ obs2) fin c /\
                Permutation (parts c) (parts l ++ parts r ++ log).
Proof.
  intros Hlo Hhi HL HR Hobs.
  destruct (merge_inv Hlo Hhi HL HR Hobs) as (m & log1 & E1 & I1 & P1).
  unfold merge_and_spill. rewrite E1. cbn [bind fst snd].
  destruct (Z.eqb_spec spill 0) as [_|_].
  - eexists _, _. split; [reflexivity|]. auto.
  - destruct (maybe_write_inv spill I1) as (m' & log2 & E2 & I2 & P2).
    rewrite E2. cbn [bind fst snd].
    eexists _, _. split; [reflexivity|]. split; [exact I2|].
    rewrite P2. rewrite !app_assoc. apply Permutation_app_tail. rewrite <- app_assoc. exact P1.
Qed.

Lemma nleaves_pos (t : tree) : 1 <= nleaves t.
Proof. induction t; simpl; lia. Qed.

Lemma tree_obs_nonempty (t : tree) : tree_ok t -> obs_of (tree_chunks t) <> [].
Proof.
  induction t as [cs|l IHl r IHr]; simpl.
  - destruct cs; [congruence|]. simpl. discriminate.
  - intros [Hl Hr]. unfold obs_of in *. rewrite map_app. intros H. apply app_eq_nil in H.
    destruct H as [H _]. exact (IHl Hl H).
Qed.

Lemma run_inv spill p0 wpc n mark (t : tree) : 1 <= wpc -> minp pw <= p0 -> forall j,
  tree_ok t -> 0 <= j -> j + nleaves t <= n ->
  p0 + n * wpc <= maxp pw + 1 ->
  exists c log,
    run fixed (Some pw) spill p0 wpc (minw pw) n mark t j = Ok (c, log) /\
    Inv (p0 + j * wpc) (p0 + (j + nleaves t) * wpc)
        (bytes_of (tree_chunks t)) (obs_of (tree_chunks t))
        (mark && (j + nleaves t =? n)) c /\
    Permutation (parts c) log.
Proof.
  intros Hw Hp0. induction t as [cs|l IHl r IHr]; intros j Hok Hj Hn Hmax.
  - cbn [run nleaves tree_chunks].
    destruct (leaf_inv spill (p0 + j * wpc) wpc (mark && (j =? n - 1)) cs Hw)
      as (c & log & E & I & P).
    rewrite E. exists c, log. split; [reflexivity|]. split.
    + replace (p0 + (j + 1) * wpc) with (p0 + j * wpc + wpc) by lia.
      replace (j + 1 =? n) with (j =? n - 1); [exact I|].
      destruct (Z.eqb_spec j (n - 1)), (Z.eqb_spec (j + 1) n); auto; lia.
    + rewrite P. reflexivity.
  - cbn [run nleaves tree_chunks]. destruct Hok as [Hokl Hokr].
    pose proof (nleaves_pos l) as Hl1. pose proof (nleaves_pos r) as Hrg1. cbn [nleaves] in Hn.
    destruct (IHl j Hokl Hj ltac:(lia) Hmax) as (a & loga & Ea & Ia & Pa).
    destruct (IHr (j + nleaves l) Hokr ltac:(lia) ltac:(lia) Hmax) as (b & logb & Eb & Ib & Pb).
    rewrite Ea. cbn [bind fst snd]. rewrite Eb. cbn [bind fst snd].
    (* the left subtree does not hold the last leaf, so it is not final *)
    replace (mark && (j + nleaves l =? n)) with false in Ia
      by (destruct (Z.eqb_spec (j + nleaves l) n); [lia|rewrite andb_false_r; reflexivity]).
    rewrite <- (Z.add_assoc j) in Ib.
    assert (Hq1 : minp pw <= p0 + j * wpc)
      by (pose proof (Z.mul_nonneg_nonneg j wpc); lia).
    assert (Hq2 : p0 + (j + (nleaves l + nleaves r)) * wpc <= maxp pw + 1)
      by (pose proof (Z.mul_le_mono_nonneg_r (j + (nleaves l + nleaves r)) n wpc); lia).
    destruct (merge_and_spill_inv spill Hq1 Hq2 Ia Ib (tree_obs_nonempty l Hokl))
      as (m & logm & Em & Im & Pm).
    rewrite Em. cbn [bind fst snd].
    eexists _, _. split; [reflexivity|]. split.
    + unfold bytes_of, obs_of in *. rewrite !map_app, concat_app. exact Im.
    + eapply Permutation_trans; [exact Pm|].
      rewrite !app_assoc. apply Permutation_app_tail. apply Permutation_app; assumption.
Qed.

Definition result_ok (hdr seg footer : list A) (fp log : list part) : Prop :=
  pbytes fp = hdr ++ seg ++ footer /\
  incr_from (minp pw) (pids fp) (maxp pw + 1) /\
  Permutation fp log /\
  Forall big (removelast fp) /\
  fp <> [].

(* What [flush] needs of the root chunk.  Weaker than [Inv]: a header merged in
   front (without a writer) keeps it, although that chunk's [keep] and, while
   nothing is written, its [next] are the header's. *)
Record FInv (lo hi : Z) (content : list A) (c : chunk) : Prop := {
  f_content : left c ++ pbytes (parts c) ++ data c = content;
  f_range : lo <= hi;
  f_ns : parts c = [] -> left c = [];
  f_st : parts c <> [] ->
         minw pw <= len (left c) /\ (data c = [] \/ 1 <= credits c) /\ 0 <= credits c /\
         next c + credits c <= hi /\
         incr_from lo (pids (parts c)) (next c) /\ Forall big (parts c)
}.

Lemma Inv_FInv lo hi seg obs fin c : Inv lo hi seg obs fin c -> FInv lo hi seg c.
Proof.
  intros [Hc Ho Hf Hk Hlo Hhi Hcr Hids Hbig Hns Hst]. constructor; auto; try lia.
  - intros Hp. apply Hns, Hp.
  - intros Hp. destruct (Hst Hp) as (Ha & Hb). repeat split; auto; try lia.
    destruct fin; [destruct Hb; auto | right; apply Hb].
Qed.

(* _finalizer_dask_op: the header chunk is merged in front without a writer, so
   its bytes go in front of the data (nothing written yet) or of the left-over *)
Lemma header_merge_finv lo hi content (c : chunk) hdr id :
  FInv lo hi content c ->
  exists c2,
    (if isnil hdr then Ok (c, []) else merge None (append (fresh id 1 false 0) hdr None) c)
    = Ok (c2, []) /\ FInv lo hi (hdr ++ content) c2 /\ parts c2 = parts c.
Proof.
  intros [Hc Hr Hns Hst]. destruct (nil_or_not hdr) as [->|Hh].
  - exists c. split; [reflexivity|]. split; [constructor; assumption | reflexivity].
  - rewrite (proj2 (isnil_false hdr) Hh). unfold merge.
    destruct (nil_or_not (parts c)) as [Hp|Hp].
    + rewrite (started_nil c Hp), (Hns Hp). cbn. rewrite Hp.
      eexists. split; [reflexivity|]. split; [|reflexivity].
      constructor; cbn [next credits data left parts]; try congruence.
      rewrite <- Hc, (Hns Hp), Hp. reflexivity.
    + rewrite (started_cons c Hp). cbn.
      eexists. split; [reflexivity|]. split; [|reflexivity].
      destruct (Hst Hp) as (Ha & Hb).
      constructor; cbn [next credits data left parts].
      * rewrite <- Hc, <- app_assoc. reflexivity.
      * exact Hr.
      * contradiction.
      * intros _. split; [|exact Hb]. rewrite len_app. pose proof (len_nonneg hdr). lia.
Qed.

Lemma Forall_removelast {X} (P : X -> Prop) l : Forall P l -> Forall P (removelast l).
Proof.
  induction l as [|x l IH]; simpl; auto. intros H. inversion H; subst.
  destruct l; [constructor|]. constructor; auto.
Qed.

(* MPUChunk.flush on the root: the left-over becomes part [leftid], below every
   part number handed out *)
Lemma flush_spec lo hi (c : chunk) hdr seg footer leftid log0 :
  minp pw <= leftid -> leftid < lo -> hi <= maxp pw + 1 ->
  FInv lo hi (hdr ++ seg ++ footer) c ->
  Permutation (parts c) log0 ->
  exists fp log, flush pw c leftid = Ok (fp, log) /\ result_ok hdr seg footer fp (log0 ++ log).
Proof.
  intros Hl1 Hl2 Hhi [Hc Hlh Hns Hst] Hperm.
  unfold flush, result_ok. destruct (nil_or_not (parts c)) as [Hp|Hp].
  - rewrite (started_nil c Hp), (Hns Hp). cbn [negb isnil guard bind].
    rewrite (Hns Hp), Hp in Hc. rewrite Hp in *. apply Permutation_nil in Hperm. subst log0.
    eexists _, _. split; [reflexivity|].
    cbn [app pids map fst incr_from removelast]. rewrite pbytes_one. repeat split.
    + exact Hc.
    + exact Hl1.
    + lia.
    + reflexivity.
    + constructor.
    + discriminate.
  - rewrite (started_cons c Hp). cbn [negb].
    destruct (Hst Hp) as (Hleft & Hdc & Hcr & Hnc & Hids & Hbig).
    (* the data, if any, is written as one last part *)
    assert (exists c' logw,
      (if isnil (data c) then Ok (c, []) else flush_rhs (Some pw) (set_final c true) []) = Ok (c', logw) /\
      left c' = left c /\ parts c' = parts c ++ logw /\ pbytes logw = data c /\
      incr_from lo (pids (parts c')) hi /\ Forall big (removelast (parts c')))
      as (c' & logw & E & El & Ep & Eb & Ei & Ebig).
    { destruct (nil_or_not (data c)) as [Hd|Hd].
      - exists c, []. rewrite Hd, app_nil_r. repeat split.
        + eapply incr_from_weaken; [apply Z.le_refl| |exact Hids]. lia.
        + apply Forall_removelast, Hbig.
      - rewrite (proj2 (isnil_false _) Hd). destruct Hdc as [Hd0|Hc1]; [contradiction|].
        pose proof (incr_from_le _ _ _ Hids).
        rewrite flush_rhs_started; cbn [set_final next credits data left parts final]; auto; try lia.
        eexists _, _. split; [reflexivity|]. cbn [left parts]. rewrite app_nil_r. repeat split.
        + apply pbytes_one.
        + apply pids_snoc; [exact Hids | lia].
        + rewrite removelast_last. exact Hbig. }
    rewrite E. cbn [bind fst snd]. rewrite El.
    assert (Hcont : left c ++ pbytes (parts c') = hdr ++ seg ++ footer)
      by (rewrite Ep, pbytes_app, Eb; exact Hc).
    assert (Hperm' : Permutation (parts c') (log0 ++ logw))
      by (rewrite Ep; apply Permutation_app_tail, Hperm).
    assert (Hpn' : parts c' <> []) by (rewrite Ep; intros H; apply app_eq_nil in H; tauto).
    destruct (nil_or_not (left c)) as [Hlf|Hlf].
    + rewrite Hlf in *. cbn [isnil].
      eexists _, _. split; [reflexivity|]. repeat split; auto.
      eapply incr_from_weaken; [| |exact Ei]; lia.
    + rewrite (proj2 (isnil_false _) Hlf), (proj2 (Z.leb_le _ _) Hleft). cbn [guard bind].
      eexists _, _. split; [reflexivity|]. repeat split.
      * exact Hcont.
      * exact Hl1.
      * cbn [fst]. eapply incr_from_weaken; [| |exact Ei]; lia.
      * rewrite app_assoc. apply Permutation_cons_app. rewrite app_nil_r. exact Hperm'.
      * simpl. destruct (parts c'); [congruence|]. constructor; assumption.
      * discriminate.
Qed.

Lemma finalizer_spec hi seg obs fin (c : chunk) hdr footer log0 :
  hi <= maxp pw + 1 ->
  Inv (minp pw + 1) hi seg obs fin c ->
  (footer <> [] -> fin = false) ->
  Permutation (parts c) log0 ->
  exists fp log, finalizer fixed pw c hdr footer = Ok (fp, log) /\
                 result_ok hdr seg footer fp (log0 ++ log).
Proof.
  intros Hhi HI Hff Hperm.
  unfold finalizer. cbn [fx_left_id fixed].
  set (c1 := if isnil footer then c else append c footer None).
  assert (H1 : exists obs', Inv (minp pw + 1) hi (seg ++ footer) obs' fin c1 /\ parts c1 = parts c).
  { unfold c1. destruct (nil_or_not footer) as [->|Hft].
    - rewrite app_nil_r. eauto.
    - rewrite (proj2 (isnil_false _) Hft). rewrite (Hff Hft) in *.
      eexists. split; [apply append_inv, HI | reflexivity]. }
  destruct H1 as (obs' & I1 & P1).
  destruct (header_merge_finv _ _ _ c1 hdr (minp pw) (Inv_FInv _ _ _ _ _ _ I1)) as (c2 & E2 & F2 & P2).
  rewrite E2. cbn [bind fst snd].
  destruct (flush_spec (minp pw + 1) hi c2 hdr seg footer (minp pw) log0) as (fp & log & E & R);
    try assumption; try lia.
  { rewrite P2, P1. exact Hperm. }
  rewrite E. cbn [bind fst snd app]. eexists _, _. split; [reflexivity | exact R].
Qed.

Theorem mpu_write_correct wpc spill hdr has_footer footer (t : tree) :
  1 <= wpc -> 0 <= spill -> tree_ok t ->
  minp pw + nleaves t * wpc <= maxp pw ->
  exists fp log,
    mpu_write fixed pw wpc spill hdr has_footer footer t = Ok (fp, log, obs_of (tree_chunks t)) /\
    result_ok hdr (bytes_of (tree_chunks t)) (if has_footer then footer else []) fp log.
Proof.
  intros Hw Hsp Hok Hmax. unfold mpu_write.
  assert (Hh : minp pw + 1 + nleaves t * wpc <= maxp pw + 1) by lia.
  destruct (run_inv spill (minp pw + 1) wpc (nleaves t) (negb has_footer) t Hw ltac:(lia)
              0 Hok (Z.le_refl 0) (Z.le_refl _) Hh) as (c & log0 & E & I & P).
  rewrite E. cbn [bind fst snd].
  cbn [Z.add Z.mul] in I. rewrite Z.add_0_r, Z.eqb_refl, andb_true_r in I.
  destruct (finalizer_spec _ _ _ _ c hdr (if has_footer then footer else []) log0 Hh I)
    as (fp & log & Ef & R).
  - destruct has_footer; [reflexivity|congruence].
  - exact P.
  - rewrite Ef. cbn [bind fst snd]. eexists _, _. split; [|exact R].
    rewrite (i_obs _ _ _ _ _ _ I). reflexivity.
Qed.

End Proofs.
