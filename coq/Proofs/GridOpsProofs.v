(** Lemmas about Model/GridOps.v (property C16).

    The bbox folds are read through [least_of]: a fold of min (max) returns one of the folded
    values, below (above) all of them; bbox_intersection is bbox_union with min and max
    exchanged.  On GeoBoxes derived from one invertible base by pixel-side translations
    ([on_grid], [on_grid_q]) [pixel_translation] is the difference of the translations
    ([aff_family_translation]), so the set operations compute on pixel rectangles ([pbox]). *)
From Coq Require Import ZArith QArith Qround Qabs Qminmax List Bool Lia Lqa.
From OG Require Import Base.Result Base.QZ Base.Aff2 Model.Tagged Model.GridOps.
From OG Require Base.ListSel Base.QMinMax Proofs.MathHBasics.
Import ListNotations.
Open Scope Q_scope.

Lemma existsb_false_iff {X} (f : X -> bool) l : existsb f l = false <-> forall x, In x l -> f x = false.
Proof.
  rewrite <- not_true_iff_false, existsb_exists. split.
  - intros H x Hx. apply not_true_iff_false. intros E. apply H. exists x. auto.
  - intros H (x & Hx & E). rewrite (H x Hx) in E. discriminate.
Qed.

Definition least_of {X A} (le : A -> A -> Prop) (f : X -> A) (m : A) (l : list X) : Prop :=
  (exists y, In y l /\ m = f y) /\ forall y, In y l -> le m (f y).

(** the accumulating loops of bbox_union / bbox_intersection put the new value first: [lo v acc] *)
Definition folds_least {A} (le : A -> A -> Prop) (op : A -> A -> A) : Prop :=
  forall X (f : X -> A) l x, least_of le f (fold_left (fun a v => op v a) (map f l) (f x)) (x :: l).

Lemma Zmin_least : folds_least Z.le Z.min.
Proof. intros X f l x. apply (ListSel.fold_left_sel_map Z.le); [exact Z.le_trans | intros a b; lia]. Qed.

Lemma Zmax_least : folds_least (fun a b => (b <= a)%Z) Z.max.
Proof.
  intros X f l x. apply (ListSel.fold_left_sel_map (fun a b => (b <= a)%Z)); [intros a b c; lia | intros a b; lia].
Qed.

Lemma Qmin_case x y : x <= y /\ Qmin x y = x \/ y <= x /\ Qmin x y = y.
Proof.
  unfold Qmin, GenericMinMax.gmin.
  destruct (Qcompare_spec x y) as [E | E | E]; [left | left | right]; split; try reflexivity;
    [rewrite E; apply Qle_refl | apply Qlt_le_weak, E ..].
Qed.

Lemma Qmax_case x y : y <= x /\ Qmax x y = x \/ x <= y /\ Qmax x y = y.
Proof.
  unfold Qmax, GenericMinMax.gmax.
  destruct (Qcompare_spec x y) as [E | E | E]; [left | right | left]; split; try reflexivity;
    [rewrite E; apply Qle_refl | apply Qlt_le_weak, E ..].
Qed.

Lemma Qmin_least : folds_least Qle Qmin.
Proof.
  intros X f l x. apply (ListSel.fold_left_sel_map Qle); [exact Qle_trans | intros a b; apply or_comm, Qmin_case].
Qed.

Lemma Qmax_least : folds_least (fun a b => b <= a) Qmax.
Proof.
  intros X f l x.
  apply (ListSel.fold_left_sel_map (fun a b => b <= a)); [exact QMinMax.Qge_trans | intros a b; apply or_comm, Qmax_case].
Qed.

Lemma Qminl_least {X} (f : X -> Q) l x : least_of Qle f (Qminl (f x) (map f l)) (x :: l).
Proof. apply (ListSel.fold_left_sel_map Qle); [exact Qle_trans | exact Qmin_case]. Qed.

Lemma Qmaxl_least {X} (f : X -> Q) l x : least_of (fun a b => b <= a) f (Qmaxl (f x) (map f l)) (x :: l).
Proof. apply (ListSel.fold_left_sel_map (fun a b => b <= a)); [exact QMinMax.Qge_trans | exact Qmax_case]. Qed.

Section BoxFolds.
  Context {crs : Type} (crs_eqb : crs -> crs -> bool) {A : Type}.
  Notation bbox := (@bbox crs A).

  Lemma inter_loop_swap lo hi (bbs : list bbox) : forall L B R T c,
    bbox_inter_loop crs_eqb lo hi L B R T c bbs = bbox_union_loop crs_eqb hi lo L B R T c bbs.
  Proof. induction bbs as [|x rest IH]; intros; simpl; [|rewrite IH]; reflexivity. Qed.

  Lemma bbox_intersection_swap lo hi (bbs : list bbox) :
    bbox_intersection crs_eqb lo hi bbs = bbox_union crs_eqb hi lo bbs.
  Proof. destruct bbs; [reflexivity | apply inter_loop_swap]. Qed.

  Variables lo hi : A -> A -> A.

  Lemma union_loop_eq (bbs : list bbox) : forall L B R T c,
    bbox_union_loop crs_eqb lo hi L B R T c bbs =
    if existsb (fun x => tag_ne crs_eqb c (bcrs x)) bbs then Err ECrs
    else Ok (mkBB (fold_left (fun a v => lo v a) (map bl bbs) L) (fold_left (fun a v => lo v a) (map bb_ bbs) B)
                  (fold_left (fun a v => hi v a) (map br bbs) R) (fold_left (fun a v => hi v a) (map bt bbs) T) c).
  Proof.
    induction bbs as [|x rest IH]; intros; simpl; [reflexivity|].
    destruct (tag_ne crs_eqb c (bcrs x)); [reflexivity | apply IH].
  Qed.

  Variable le : A -> A -> Prop.
  Hypothesis lo_least : folds_least le lo.
  Hypothesis hi_least : folds_least (fun a b => le b a) hi.

  (* with [le] the order of the coordinates this is the least box containing all operands; with the
     reverse order (and max, min for [lo], [hi]) the greatest box contained in all of them *)
  Lemma bbox_union_lub (x : bbox) rest :
    (forall y, In y rest -> tag_ne crs_eqb (bcrs x) (bcrs y) = false) ->
    exists u, bbox_union crs_eqb lo hi (x :: rest) = Ok u /\ bcrs u = bcrs x /\
      (forall y, In y (x :: rest) ->
         le (bl u) (bl y) /\ le (bb_ u) (bb_ y) /\ le (br y) (br u) /\ le (bt y) (bt u)) /\
      (forall v : bbox,
         (forall y, In y (x :: rest) -> le (bl v) (bl y) /\ le (bb_ v) (bb_ y) /\ le (br y) (br v) /\ le (bt y) (bt v)) ->
         le (bl v) (bl u) /\ le (bb_ v) (bb_ u) /\ le (br u) (br v) /\ le (bt u) (bt v)).
  Proof.
    intros Hc. apply existsb_false_iff in Hc. unfold bbox_union. rewrite union_loop_eq, Hc.
    eexists. split; [reflexivity|]. split; [reflexivity|]. simpl.
    destruct (lo_least _ bl rest x) as ((yl & Il & ->) & Ll), (lo_least _ bb_ rest x) as ((yb & Ib & ->) & Lb),
             (hi_least _ br rest x) as ((yr & Ir & ->) & Lr), (hi_least _ bt rest x) as ((yt & It & ->) & Lt).
    split.
    - intros y Hy. auto.
    - intros v Hv. repeat split; apply Hv; assumption.
  Qed.
End BoxFolds.

Lemma Qltb_true x y : Qltb x y = true <-> x < y.
Proof. exact (QMinMax.Qlt_bool_true x y). Qed.

Lemma Qltb_false x y : Qltb x y = false <-> y <= x.
Proof. exact (QMinMax.Qlt_bool_false x y). Qed.

Global Instance Qltb_comp : Proper (Qeq ==> Qeq ==> eq) Qltb.
Proof. exact QMinMax.Qlt_bool_comp. Qed.

Lemma isclose_spec atol rtol a b :
  isclose atol rtol a b = true <-> Qabs (a - b) <= atol + rtol * Qabs b.
Proof. unfold isclose. apply Qle_bool_iff. Qed.

Lemma Qabs_sub_eq a b : a == b -> Qabs (a - b) == 0.
Proof. intros H. rewrite H. setoid_replace (b - b) with 0 by ring. reflexivity. Qed.

Lemma isclose_eq atol rtol a b : 0 <= atol -> 0 <= rtol -> a == b -> isclose atol rtol a b = true.
Proof.
  intros H1 H2 E. apply isclose_spec. rewrite (Qabs_sub_eq a b E).
  pose proof (Qabs_nonneg b). nra.
Qed.

(* Model/GridOps.v has copies of the float helpers of Model/MathH.v ([Qtrunc], [fmod1], [split_float],
   [is_almost_int]), convertible with them: the facts of MathHBasics apply as they stand *)
Global Instance Qtrunc_comp : Proper (Qeq ==> eq) Qtrunc.
Proof. exact MathHBasics.Qtrunc_comp. Qed.

Global Instance fmod1_comp : Proper (Qeq ==> Qeq) fmod1.
Proof. intros x y H. unfold fmod1. rewrite (Qtrunc_comp x y H), H. reflexivity. Qed.

Global Instance maybe_zero_comp : Proper (Qeq ==> Qeq ==> Qeq) maybe_zero.
Proof.
  intros x y H t t' Ht. unfold maybe_zero.
  assert (E : Qabs x == Qabs y) by (rewrite H; reflexivity).
  rewrite (Qltb_comp _ _ E _ _ Ht). destruct (Qltb _ _); [reflexivity | exact H].
Qed.

Lemma fmod1_Z z : fmod1 (inject_Z z) == 0.
Proof. unfold fmod1. rewrite MathHBasics.Qtrunc_Z. ring. Qed.

Lemma Z_between_false (n t : Z) : (t < n)%Z -> (n < t + 1)%Z -> False.
Proof. lia. Qed.

Lemma is_almost_int_spec x tol :
  is_almost_int x tol = true <-> exists n : Z, Qabs (x - inject_Z n) < tol.
Proof. exact (MathHBasics.is_almost_int_within x tol). Qed.

Lemma py_round_near x (n : Z) : Qabs (x - inject_Z n) < 1 # 2 -> py_round x = n.
Proof.
  intros H. apply Qabs_Qlt_condition in H. destruct H as (H1 & H2).
  unfold py_round.
  assert (Em : inject_Z (n - 1) == inject_Z n - 1).
  { apply inject_Z_sub. }
  assert (Ep : inject_Z (n + 1) == inject_Z n + 1).
  { rewrite inject_Z_plus. reflexivity. }
  assert (D : Qfloor x = n \/ Qfloor x = (n - 1)%Z).
  { assert (A : (n - 1 <= Qfloor x)%Z).
    { apply Qfloor_ge_iff. rewrite Em. lra. }
    assert (B : (Qfloor x < n + 1)%Z).
    { apply Qfloor_lt_iff. rewrite Ep. lra. }
    lia. }
  destruct (Qfloor_spec x) as (f & Ef & F1 & F2). rewrite <- Ef.
  destruct D as [D | D].
  - assert (Eq : f == inject_Z n) by (rewrite Ef, D; reflexivity).
    destruct (Qltb (x - f) (1 # 2)) eqn:E; [exact D|].
    apply Qltb_false in E. lra.
  - assert (Eq : f == inject_Z n - 1) by (rewrite Ef, D; exact Em).
    destruct (Qltb (x - f) (1 # 2)) eqn:E.
    { apply Qltb_true in E. lra. }
    destruct (Qltb (1 # 2) (x - f)) eqn:E2; [lia|].
    apply Qltb_false in E2. lra.
Qed.

Lemma split_float_spec x :
  exists n : Z,
    fst (split_float x) == inject_Z n /\
    x == fst (split_float x) + snd (split_float x) /\
    - (1 # 2) <= snd (split_float x) /\ snd (split_float x) <= 1 # 2.
Proof.
  destruct (MathHBasics.split_float_char x) as (z & Hw & Hp & H1 & H2). exists z.
  change (MathH.split_float x) with (split_float x) in Hw, Hp. rewrite Hw, Hp. repeat split; lra.
Qed.

Lemma snap_axis ztol t : 0 < ztol ->
  let s := maybe_zero (snd (split_float t)) ztol in
  Qabs s <= 1 # 2 /\
  exists n : Z, Qabs (t - s - inject_Z n) < ztol /\ (~ s == 0 -> t - s == inject_Z n).
Proof.
  intros Hz. destruct (split_float_spec t) as (n & Hw & Hsum & Hlo & Hhi).
  set (w := fst (split_float t)) in *. set (f := snd (split_float t)) in *.
  cbv zeta. unfold maybe_zero.
  destruct (Qltb (Qabs f) ztol) eqn:E.
  - apply Qltb_true in E. split; [apply Qabs_Qle_condition; split; lra|].
    exists n. split.
    + apply Qabs_Qlt_condition in E. apply Qabs_Qlt_condition; split; lra.
    + intros C. exfalso. apply C. reflexivity.
  - split; [apply Qabs_Qle_condition; split; lra|].
    exists n. split.
    + apply Qabs_Qlt_condition; split; lra.
    + intros _. lra.
Qed.

Lemma is_almost_int_on_Z x z tol : 0 < tol -> x == inject_Z z -> is_almost_int x tol = true.
Proof. intros H E. apply is_almost_int_spec. exists z. rewrite (Qabs_sub_eq _ _ E). exact H. Qed.

Lemma py_round_on_Z x z : x == inject_Z z -> py_round x = z.
Proof. intros E. apply py_round_near. rewrite (Qabs_sub_eq _ _ E). reflexivity. Qed.

Section Clamp.
  Local Open Scope Z_scope.

  Lemma clamp_edge x r : x + Z.max 0 (r - x) = Z.max x r.
  Proof. lia. Qed.

  (* raising a high edge [h] to the low edge [l] changes nothing: if [h < l] both widths are 0 *)
  Lemma clamp_raise l h c c' :
    Z.max 0 (Z.min (Z.max l h) c' - Z.max l c) = Z.max 0 (Z.min h c' - Z.max l c).
  Proof.
    destruct (Z.le_ge_cases l h) as [H | H].
    - rewrite (Z.max_r l h H). reflexivity.
    - rewrite (Z.max_l l h H), !Z.max_l by lia. reflexivity.
  Qed.

  (* intersecting three intervals [a, A), [b, B), [c, C), clamped after each step, either way round *)
  Lemma inter_axis a A b B c C :
    Z.max 0 (Z.min (Z.max a b + Z.max 0 (Z.min A B - Z.max a b)) C - Z.max (Z.max a b) c) =
    Z.max 0 (Z.min A (Z.max b c + Z.max 0 (Z.min B C - Z.max b c)) - Z.max a (Z.max b c)).
  Proof.
    rewrite !clamp_edge, (Z.min_comm A (Z.max _ _)), (Z.max_comm a (Z.max _ _)), !clamp_raise.
    rewrite (Z.min_comm _ A), Z.min_assoc, (Z.max_comm _ a), Z.max_assoc. reflexivity.
  Qed.
End Clamp.

Section Reject.
  Variable crs : Type.
  Variable crs_eqb : crs -> crs -> bool.
  Notation geobox := (geobox crs).
  Variables atol rtol tol : Q.

  Let bip := bbox_in_pix crs_eqb atol rtol tol.

  Definition lin_closeb (m : aff) : bool :=
    isclose atol rtol (aa m) 1 && isclose atol rtol (ab m) 0
    && isclose atol rtol (ad m) 0 && isclose atol rtol (ae m) 1.

  Lemma lin_closeb_spec m : lin_closeb m = true <-> lin_close atol rtol m.
  Proof.
    unfold lin_closeb, lin_close, close_to. rewrite !andb_true_iff, !isclose_spec. tauto.
  Qed.

  Lemma pixel_translation_eq (a b : geobox) :
    pixel_translation crs_eqb atol rtol a b =
    if tag_ne crs_eqb (gcrs a) (gcrs b) then Err EValue
    else if Qeq_bool (aff_det (gaff b)) 0 then Err EOther
    else if lin_closeb (rel_aff a b) then Ok (ac (rel_aff a b), af (rel_aff a b)) else Err EValue.
  Proof. reflexivity. Qed.

  Lemma bbox_in_pix_eq (a ref : geobox) :
    bip a ref =
    if tag_ne crs_eqb (gcrs a) (gcrs ref) then Err EValue
    else if Qeq_bool (aff_det (gaff ref)) 0 then Err EOther
    else if lin_closeb (rel_aff a ref) && (is_almost_int (ac (rel_aff a ref)) tol && is_almost_int (af (rel_aff a ref)) tol)
    then Ok (mkBB (py_round (ac (rel_aff a ref))) (py_round (af (rel_aff a ref)))
                  (py_round (ac (rel_aff a ref)) + gnx a)%Z (py_round (af (rel_aff a ref)) + gny a)%Z None)
    else Err EValue.
  Proof.
    unfold bip, bbox_in_pix. rewrite pixel_translation_eq.
    destruct (tag_ne _ _ _); [reflexivity|]. destruct (Qeq_bool _ _); [reflexivity|].
    destruct (lin_closeb _); reflexivity.
  Qed.

  Lemma bbox_in_pix_ok_bool (a ref : geobox) :
    is_ok (bip a ref) =
    negb (tag_ne crs_eqb (gcrs a) (gcrs ref)) && negb (Qeq_bool (aff_det (gaff ref)) 0)
    && lin_closeb (rel_aff a ref)
    && (is_almost_int (ac (rel_aff a ref)) tol && is_almost_int (af (rel_aff a ref)) tol).
  Proof.
    rewrite bbox_in_pix_eq.
    destruct (tag_ne _ _ _); [reflexivity|]. destruct (Qeq_bool _ _); [reflexivity|].
    cbn [negb andb]. destruct (_ && _); reflexivity.
  Qed.

  Lemma bbox_in_pix_ok_inv (a ref : geobox) bb :
    bip a ref = Ok bb ->
    tag_ne crs_eqb (gcrs a) (gcrs ref) = false /\
    bb = mkBB (py_round (ac (rel_aff a ref))) (py_round (af (rel_aff a ref)))
              (py_round (ac (rel_aff a ref)) + gnx a)%Z (py_round (af (rel_aff a ref)) + gny a)%Z None.
  Proof.
    rewrite bbox_in_pix_eq.
    destruct (tag_ne _ _ _); [discriminate|]. destruct (Qeq_bool _ _); [discriminate|].
    destruct (_ && _); [|discriminate]. intros [= <-]. auto.
  Qed.

  Theorem bbox_in_pix_accepts_iff (a ref : geobox) :
    is_ok (bip a ref) = true <-> compatible crs_eqb atol rtol tol a ref.
  Proof.
    rewrite bbox_in_pix_ok_bool. unfold compatible, near_int.
    rewrite !andb_true_iff, !negb_true_iff, lin_closeb_spec, !is_almost_int_spec.
    rewrite <- (not_true_iff_false (Qeq_bool _ _)), Qeq_bool_iff. tauto.
  Qed.

  Theorem bbox_in_pix_error_kind (a ref : geobox) e :
    bip a ref = Err e ->
    e = EValue \/ (e = EOther /\ tag_ne crs_eqb (gcrs a) (gcrs ref) = false /\ aff_det (gaff ref) == 0).
  Proof.
    rewrite bbox_in_pix_eq.
    destruct (tag_ne _ _ _); [intros [= <-]; auto|].
    destruct (Qeq_bool _ _) eqn:E; [intros [= <-]; apply Qeq_bool_iff in E; auto|].
    destruct (_ && _); [discriminate | intros [= <-]; auto].
  Qed.
End Reject.

Section OnGrid.
  Local Open Scope Z_scope.
  Variable crs : Type.
  Variable crs_eqb : crs -> crs -> bool.
  Notation geobox := (geobox crs).
  Variables atol rtol tol : Q.
  Hypothesis Hatol : (0 <= atol)%Q.
  Hypothesis Hrtol : (0 <= rtol)%Q.
  Hypothesis Htol : (0 < tol)%Q.
  Variable base : aff.
  Hypothesis Hbase : ~ (aff_det base == 0)%Q.

  Let pt := pixel_translation crs_eqb atol rtol.
  Let bip := bbox_in_pix crs_eqb atol rtol tol.

  Lemma on_grid_q_det (g : geobox) tx ty : on_grid_q base g tx ty -> ~ (aff_det (gaff g) == 0)%Q.
  Proof. unfold on_grid_q. intros H. rewrite H, aff_det_mul_tr. exact Hbase. Qed.

  Lemma on_grid_det (g : geobox) p : on_grid base g p -> ~ (aff_det (gaff g) == 0)%Q.
  Proof. intros (_ & _ & H). exact (on_grid_q_det g _ _ H). Qed.

  Lemma pixel_translation_on_grid_q (a b : geobox) p q r s :
    on_grid_q base a p q -> on_grid_q base b r s -> tag_ne crs_eqb (gcrs a) (gcrs b) = false ->
    exists t, pt a b = Ok t /\ (fst t == p - r)%Q /\ (snd t == q - s)%Q.
  Proof.
    intros Ha Hb Hc. unfold pt. rewrite pixel_translation_eq, Hc.
    destruct (Qeq_bool (aff_det (gaff b)) 0) eqn:E.
    { apply Qeq_bool_iff in E. contradiction (on_grid_q_det _ _ _ Hb). }
    assert (Hm : aff_eq (rel_aff a b) (aff_tr (p - r) (q - s))).
    { unfold rel_aff, on_grid_q in *. rewrite Ha, Hb. apply aff_family_translation, Hbase. }
    destruct Hm as (E1 & E2 & E3 & E4 & E5 & E6).
    unfold lin_closeb. rewrite !isclose_eq by assumption.
    eexists. split; [reflexivity|]. split; assumption.
  Qed.

  Lemma pixel_translation_on_grid (a b : geobox) pa pb :
    on_grid base a pa -> on_grid base b pb -> tag_ne crs_eqb (gcrs a) (gcrs b) = false ->
    exists t, pt a b = Ok t /\
      (fst t == inject_Z (px pa - px pb))%Q /\ (snd t == inject_Z (py pa - py pb))%Q.
  Proof.
    intros (_ & _ & Ha) (_ & _ & Hb) Hc. setoid_rewrite inject_Z_sub.
    exact (pixel_translation_on_grid_q a b _ _ _ _ Ha Hb Hc).
  Qed.

  Definition relbox (r p : pbox) : @bbox crs Z :=
    mkBB (px p - px r) (py p - py r) (px p - px r + pnx p) (py p - py r + pny p) None.

  Lemma bbox_in_pix_on_grid (a b : geobox) pa pb :
    on_grid base a pa -> on_grid base b pb -> tag_ne crs_eqb (gcrs a) (gcrs b) = false ->
    bip a b = Ok (relbox pb pa).
  Proof.
    intros Ga Gb Hc.
    destruct (pixel_translation_on_grid a b pa pb Ga Gb Hc) as (t & Et & E1 & E2).
    unfold bip, bbox_in_pix. fold pt. rewrite Et. simpl bind.
    rewrite (is_almost_int_on_Z _ _ _ Htol E1), (is_almost_int_on_Z _ _ _ Htol E2),
      (py_round_on_Z _ _ E1), (py_round_on_Z _ _ E2).
    destruct Ga as (Hy & Hx & _). rewrite Hy, Hx. reflexivity.
  Qed.

  Lemma mapM_bbox_on_grid (ref : geobox) pref : on_grid base ref pref ->
    forall gs ps, Forall2 (on_grid base) gs ps ->
    (forall g, In g gs -> tag_ne crs_eqb (gcrs g) (gcrs ref) = false) ->
    mapM (fun g => bip g ref) gs = Ok (map (relbox pref) ps).
  Proof.
    intros Gr gs ps F. induction F as [|g p gs ps Gg F IH]; intros Hc.
    - reflexivity.
    - simpl. rewrite (bbox_in_pix_on_grid g ref p pref Gg Gr (Hc g (or_introl eq_refl))). simpl.
      rewrite IH by (intros; apply Hc; simpl; auto). reflexivity.
  Qed.

  Lemma bbox_union_relboxes (le : Z -> Z -> Prop) lo hi r p ps :
    folds_least le lo -> folds_least (fun a b => le b a) hi ->
    exists L B R T, bbox_union crs_eqb lo hi (map (relbox r) (p :: ps)) = Ok (mkBB L B R T None) /\
      least_of le (fun q => px q - px r) L (p :: ps) /\
      least_of le (fun q => py q - py r) B (p :: ps) /\
      least_of (fun a b => le b a) (fun q => px q - px r + pnx q) R (p :: ps) /\
      least_of (fun a b => le b a) (fun q => py q - py r + pny q) T (p :: ps).
  Proof.
    intros Hlo Hhi. simpl map. unfold bbox_union. rewrite union_loop_eq, !map_map.
    rewrite (proj2 (existsb_false_iff _ _))
      by (intros x Hx; apply in_map_iff in Hx; destruct Hx as (q & <- & _); reflexivity).
    do 4 eexists. split; [reflexivity|].
    split; [apply (Hlo _ (fun q => px q - px r))|]. split; [apply (Hlo _ (fun q => py q - py r))|].
    split; [apply (Hhi _ (fun q => px q - px r + pnx q)) | apply (Hhi _ (fun q => py q - py r + pny q))].
  Qed.

  Lemma gbox_of_pix_bbox_on_grid (ref : geobox) pref bb u :
    on_grid base ref pref ->
    u = mkPB (px pref + bl bb) (py pref + bb_ bb) (br bb - bl bb) (bt bb - bb_ bb) ->
    on_grid base (gbox_of_pix_bbox ref bb) u.
  Proof.
    intros (_ & _ & Hr) ->. split; [reflexivity|]. split; [reflexivity|]. simpl.
    rewrite Hr, aff_mul_assoc, aff_tr_tr, !inject_Z_plus. reflexivity.
  Qed.

  Lemma In_map_rel (f : pbox -> Z) p (ps : list pbox) : In p ps -> In (f p) (map f ps).
  Proof. apply in_map. Qed.

  Theorem geobox_union_on_grid (g0 : geobox) gs p0 ps :
    Forall2 (on_grid base) (g0 :: gs) (p0 :: ps) -> same_crs crs_eqb (g0 :: gs) ->
    exists g u,
      geobox_union crs_eqb atol rtol tol (g0 :: gs) = Ok g /\
      on_grid base g u /\ gcrs g = gcrs g0 /\
      (forall p, In p (p0 :: ps) -> rect_incl p u) /\
      (forall v, (forall p, In p (p0 :: ps) -> rect_incl p v) -> rect_incl u v).
  Proof.
    intros F Hs. assert (G0 : on_grid base g0 p0) by (inversion F; assumption).
    unfold geobox_union. fold bip.
    rewrite (mapM_bbox_on_grid g0 p0 G0 _ _ F) by (intros g Hg; apply Hs; simpl; auto).
    destruct (bbox_union_relboxes Z.le Z.min Z.max p0 p0 ps Zmin_least Zmax_least)
      as (L & B & R & T & E & ((q1 & I1 & E1) & HL) & ((q2 & I2 & E2) & HB)
                          & ((q3 & I3 & E3) & HR) & ((q4 & I4 & E4) & HT)).
    cbn [bind]. rewrite E. cbn [bind].
    do 2 eexists. split; [reflexivity|].
    split; [apply (gbox_of_pix_bbox_on_grid g0 p0); [exact G0 | reflexivity]|]. split; [reflexivity|].
    unfold rect_incl. split.
    - intros p Hp. pose proof (HL p Hp). pose proof (HB p Hp). pose proof (HR p Hp). pose proof (HT p Hp).
      simpl in *. lia.
    - intros v Hv.
      destruct (Hv _ I1) as (V1 & _), (Hv _ I2) as (_ & _ & V2 & _), (Hv _ I3) as (_ & V3 & _), (Hv _ I4) as (_ & _ & _ & V4).
      simpl. lia.
  Qed.

  Lemma norm_empty_eq L B R T (c : tag crs) :
    norm_empty (mkBB L B R T c) = mkBB L B (Z.max L R) (Z.max B T) c.
  Proof.
    unfold norm_empty. simpl.
    destruct (R <? L) eqn:E1; simpl; destruct (T <? B) eqn:E2; simpl; f_equal; lia.
  Qed.

  Theorem geobox_intersection_on_grid (g0 : geobox) gs p0 ps :
    Forall2 (on_grid base) (g0 :: gs) (p0 :: ps) -> same_crs crs_eqb (g0 :: gs) ->
    exists g u,
      geobox_intersection crs_eqb atol rtol tol (g0 :: gs) = Ok g /\
      on_grid base g u /\ gcrs g = gcrs g0 /\
      0 <= pnx u /\ 0 <= pny u /\
      (forall i, in_cols u i <-> forall p, In p (p0 :: ps) -> in_cols p i) /\
      (forall j, in_rows u j <-> forall p, In p (p0 :: ps) -> in_rows p j).
  Proof.
    intros F Hs. assert (G0 : on_grid base g0 p0) by (inversion F; assumption).
    unfold geobox_intersection. fold bip.
    rewrite (mapM_bbox_on_grid g0 p0 G0 _ _ F) by (intros g Hg; apply Hs; simpl; auto).
    destruct (bbox_union_relboxes (fun a b => b <= a) Z.max Z.min p0 p0 ps Zmax_least Zmin_least)
      as (L & B & R & T & E & ((q1 & I1 & E1) & HL) & ((q2 & I2 & E2) & HB)
                          & ((q3 & I3 & E3) & HR) & ((q4 & I4 & E4) & HT)).
    cbn [bind]. rewrite bbox_intersection_swap, E. cbn [bind]. rewrite norm_empty_eq.
    do 2 eexists. split; [reflexivity|].
    split; [apply (gbox_of_pix_bbox_on_grid g0 p0); [exact G0 | reflexivity]|]. split; [reflexivity|].
    unfold in_cols, in_rows. simpl. split; [lia|]. split; [lia|]. split.
    - intros i. split.
      + intros Hi p Hp. pose proof (HL p Hp). pose proof (HR p Hp). simpl in *. lia.
      + intros Hi. pose proof (Hi _ I1). pose proof (Hi _ I3). lia.
    - intros j. split.
      + intros Hj p Hp. pose proof (HB p Hp). pose proof (HT p Hp). simpl in *. lia.
      + intros Hj. pose proof (Hj _ I2). pose proof (Hj _ I4). lia.
  Qed.

  Definition union2 (p q : pbox) : pbox :=
    mkPB (Z.min (px p) (px q)) (Z.min (py p) (py q))
         (Z.max (px p + pnx p) (px q + pnx q) - Z.min (px p) (px q))
         (Z.max (py p + pny p) (py q + pny q) - Z.min (py p) (py q)).

  Definition inter2 (p q : pbox) : pbox :=
    mkPB (Z.max (px p) (px q)) (Z.max (py p) (py q))
         (Z.max 0 (Z.min (px p + pnx p) (px q + pnx q) - Z.max (px p) (px q)))
         (Z.max 0 (Z.min (py p + pny p) (py q + pny q) - Z.max (py p) (py q))).

  (** [crs_eqb] is not assumed reflexive: the operations compare the first operand with itself,
      so that its CRS equals itself is a hypothesis *)
  Definition lands_on (F : geobox -> geobox -> res geobox) (f : pbox -> pbox -> pbox) : Prop :=
    forall a b pa pb, on_grid base a pa -> on_grid base b pb ->
      tag_ne crs_eqb (gcrs a) (gcrs a) = false -> tag_ne crs_eqb (gcrs b) (gcrs a) = false ->
      exists g, F a b = Ok g /\ on_grid base g (f pa pb) /\ gcrs g = gcrs a.

  Lemma gbox_or_on_grid : lands_on (gbox_or crs_eqb atol rtol tol) union2.
  Proof.
    intros a b pa pb Ga Gb Haa Hba. unfold gbox_or, geobox_union. fold bip. simpl mapM.
    rewrite (bbox_in_pix_on_grid a a pa pa Ga Ga Haa), (bbox_in_pix_on_grid b a pb pa Gb Ga Hba).
    simpl. eexists. split; [reflexivity|]. split; [|reflexivity].
    apply (gbox_of_pix_bbox_on_grid a pa); [exact Ga|]. unfold union2; simpl; f_equal; lia.
  Qed.

  Lemma gbox_and_on_grid : lands_on (gbox_and crs_eqb atol rtol tol) inter2.
  Proof.
    intros a b pa pb Ga Gb Haa Hba. unfold gbox_and, geobox_intersection. fold bip. simpl mapM.
    rewrite (bbox_in_pix_on_grid a a pa pa Ga Ga Haa), (bbox_in_pix_on_grid b a pb pa Gb Ga Hba).
    simpl. rewrite norm_empty_eq. eexists. split; [reflexivity|]. split; [|reflexivity].
    apply (gbox_of_pix_bbox_on_grid a pa); [exact Ga|]. unfold inter2; simpl; f_equal; lia.
  Qed.

  Lemma union2_comm p q : union2 p q = union2 q p.
  Proof.
    unfold union2.
    rewrite (Z.min_comm (px p)), (Z.min_comm (py p)), (Z.max_comm (px p + _)), (Z.max_comm (py p + _)).
    reflexivity.
  Qed.

  Lemma union2_assoc p q r : union2 (union2 p q) r = union2 p (union2 q r).
  Proof. unfold union2; simpl. rewrite !Zplus_minus, !Z.max_assoc, !Z.min_assoc. reflexivity. Qed.

  Lemma inter2_comm p q : inter2 p q = inter2 q p.
  Proof.
    unfold inter2.
    rewrite (Z.max_comm (px p)), (Z.max_comm (py p)), (Z.min_comm (px p + _)), (Z.min_comm (py p + _)).
    reflexivity.
  Qed.

  Lemma inter2_assoc p q r : inter2 (inter2 p q) r = inter2 p (inter2 q r).
  Proof.
    unfold inter2; simpl.
    f_equal; [symmetry; apply Z.max_assoc | symmetry; apply Z.max_assoc | apply inter_axis | apply inter_axis].
  Qed.

  Lemma on_grid_shape_aff_eq (g h : geobox) u : on_grid base g u -> on_grid base h u -> shape_aff_eq g h.
  Proof.
    intros (A1 & A2 & A3) (B1 & B2 & B3). unfold shape_aff_eq.
    rewrite A1, A2, A3, B1, B2, B3. repeat split; reflexivity.
  Qed.

  Lemma lands_on_comm F f : lands_on F f -> (forall p q, f p q = f q p) ->
    forall (a b : geobox) pa pb, on_grid base a pa -> on_grid base b pb -> same_crs crs_eqb [a; b] ->
    exists g h, F a b = Ok g /\ F b a = Ok h /\ shape_aff_eq g h.
  Proof.
    intros HF Hf a b pa pb Ga Gb Hs.
    destruct (HF a b pa pb Ga Gb) as (g & Eg & Og & _); try (apply Hs; simpl; auto).
    destruct (HF b a pb pa Gb Ga) as (h & Eh & Oh & _); try (apply Hs; simpl; auto).
    exists g, h. split; [exact Eg|]. split; [exact Eh|].
    rewrite Hf in Oh. exact (on_grid_shape_aff_eq g h _ Og Oh).
  Qed.

  Lemma lands_on_assoc F f : lands_on F f -> (forall p q r, f (f p q) r = f p (f q r)) ->
    forall (a b c : geobox) pa pb pc,
    on_grid base a pa -> on_grid base b pb -> on_grid base c pc -> same_crs crs_eqb [a; b; c] ->
    exists ab l bc r, F a b = Ok ab /\ F ab c = Ok l /\ F b c = Ok bc /\ F a bc = Ok r /\ shape_aff_eq l r.
  Proof.
    intros HF Hf a b c pa pb pc Ga Gb Gc Hs.
    destruct (HF a b pa pb Ga Gb) as (ab & E1 & O1 & C1); try (apply Hs; simpl; auto).
    destruct (HF ab c _ pc O1 Gc) as (l & E2 & O2 & C2); try (rewrite C1; apply Hs; simpl; auto).
    destruct (HF b c pb pc Gb Gc) as (bc & E3 & O3 & C3); try (apply Hs; simpl; auto).
    destruct (HF a bc pa _ Ga O3) as (r & E4 & O4 & C4); try (rewrite ?C3; apply Hs; simpl; auto).
    exists ab, l, bc, r. repeat (split; [assumption|]).
    rewrite Hf in O2. exact (on_grid_shape_aff_eq l r _ O2 O4).
  Qed.

  Local Open Scope Q_scope.
  Theorem snap_to_on_grid_q ztol (a b : geobox) pa qa pb qb :
    0 < ztol -> on_grid_q base a pa qa -> on_grid_q base b pb qb ->
    tag_ne crs_eqb (gcrs b) (gcrs a) = false ->
    exists u sx sy,
      snap_to crs_eqb atol rtol ztol a b = Ok u /\
      gny u = gny a /\ gnx u = gnx a /\ gcrs u = gcrs a /\
      gaff u = aff_mul (gaff a) (aff_tr sx sy) /\
      Qabs sx <= 1 # 2 /\ Qabs sy <= 1 # 2 /\
      exists n m : Z,
        Qabs (pb - pa - sx - inject_Z n) < ztol /\ Qabs (qb - qa - sy - inject_Z m) < ztol /\
        (~ sx == 0 -> pb - pa - sx == inject_Z n) /\ (~ sy == 0 -> qb - qa - sy == inject_Z m).
  Proof.
    intros Hz Ha Hb Hc.
    destruct (pixel_translation_on_grid_q b a _ _ _ _ Hb Ha Hc) as (t & Et & E1 & E2).
    unfold snap_to. fold pt. rewrite Et. simpl bind.
    destruct (snap_axis ztol (fst t) Hz) as (Sx & n & Nx1 & Nx2).
    destruct (snap_axis ztol (snd t) Hz) as (Sy & m & Ny1 & Ny2).
    set (sx := maybe_zero (snd (split_float (fst t))) ztol) in *.
    set (sy := maybe_zero (snd (split_float (snd t))) ztol) in *.
    eexists. exists sx, sy. split; [reflexivity|]. cbn [gny gnx gcrs gaff].
    split; [reflexivity|]. split; [reflexivity|]. split; [reflexivity|]. split; [reflexivity|].
    split; [exact Sx|]. split; [exact Sy|].
    exists n, m.
    apply Qabs_Qlt_condition in Nx1, Ny1.
    split; [apply Qabs_Qlt_condition; split; lra|]. split; [apply Qabs_Qlt_condition; split; lra|].
    split; intros C; [specialize (Nx2 C) | specialize (Ny2 C)]; lra.
  Qed.
End OnGrid.

Section Enclosing.
  Variable crs : Type.
  Notation geobox := (geobox crs).

  (** one axis of [boundingbox.round()] followed by [max(1, span)], on the coordinates [f] of the points *)
  Lemma enclose_axis {X} (f : X -> Q) (p : X) (ps : list X) :
    let x0 := Qfloor (Qminl (f p) (map f ps)) in
    let x1 := Qceiling (Qmaxl (f p) (map f ps)) in
    let n := Z.max 1 (x1 - x0) in
    (1 <= n)%Z /\
    (forall q, In q (p :: ps) -> inject_Z x0 <= f q /\ f q <= inject_Z (x0 + n)) /\
    (exists q, In q (p :: ps) /\ f q < inject_Z x0 + 1) /\
    (exists q, In q (p :: ps) /\
       (inject_Z (x0 + n) - 1 < f q \/
        (n = 1%Z /\ forall q', In q' (p :: ps) -> f q' == inject_Z x0))).
  Proof.
    cbv zeta.
    destruct (Qminl_least f ps p) as ((qm & Im & Em) & m2), (Qmaxl_least f ps p) as ((qM & IM & EM) & M2).
    set (mn := Qminl (f p) (map f ps)) in *. set (mx := Qmaxl (f p) (map f ps)) in *.
    destruct (Qfloor_spec mn) as (fl & Ef & F1 & F2).
    destruct (Qceiling_spec mx) as (k & Ek & K1 & K2).
    assert (Hmm : mn <= mx) by (rewrite EM; apply m2; exact IM).
    set (x0 := Qfloor mn) in *. set (x1 := Qceiling mx) in *.
    (* the right edge: [ceil mx] if the span is at least 1; otherwise the box is one pixel wide
       and [ceil mx <= floor mn] *)
    assert (Hn : exists qn, qn = inject_Z (x0 + Z.max 1 (x1 - x0)) /\
                  ((1 <= x1 - x0)%Z /\ qn == k \/ (x1 - x0 <= 0)%Z /\ qn == fl + 1 /\ k <= fl)).
    { eexists; split; [reflexivity|].
      destruct (Z_le_gt_dec 1 (x1 - x0)) as [D | D].
      - left. split; [exact D|]. rewrite Z.max_r by lia. rewrite Ek.
        replace (x0 + (x1 - x0))%Z with x1 by lia. reflexivity.
      - right. split; [lia|]. rewrite Z.max_l by lia. rewrite inject_Z_plus, <- Ef. split; [reflexivity|].
        rewrite Ek, Ef. rewrite <- Zle_Qle. lia. }
    destruct Hn as (qn & Eqn & Hn). rewrite <- Eqn. rewrite <- Ef.
    split; [lia|]. split; [|split].
    - intros v Hv. pose proof (m2 v Hv). pose proof (M2 v Hv). simpl in *.
      destruct Hn as [(D & Hq) | (D & Hq & Hk)]; split; lra.
    - exists qm. split; [exact Im|]. rewrite <- Em. lra.
    - exists qM. split; [exact IM|]. rewrite <- EM.
      destruct Hn as [(D & Hq) | (D & Hq & Hk)].
      + left. lra.
      + right. split; [lia|]. intros w Hw. pose proof (m2 w Hw). pose proof (M2 w Hw). simpl in *. lra.
  Qed.

  Lemma map_fst_in {A B} (l : list (A * B)) p : In p l -> In (fst p) (map fst l).
  Proof. apply in_map. Qed.

  Lemma enclosing_eq (g : geobox) p ps : ~ aff_det (gaff g) == 0 ->
    let fx q := fst (aff_apply (aff_inv (gaff g)) q) in
    let fy q := snd (aff_apply (aff_inv (gaff g)) q) in
    let x0 := Qfloor (Qminl (fx p) (map fx ps)) in
    let y0 := Qfloor (Qminl (fy p) (map fy ps)) in
    enclosing g true (p :: ps) =
    Ok (mkGB (Z.max 1 (Qceiling (Qmaxl (fy p) (map fy ps)) - y0)) (Z.max 1 (Qceiling (Qmaxl (fx p) (map fx ps)) - x0))
             (aff_mul (gaff g) (aff_tr (inject_Z x0) (inject_Z y0))) (gcrs g)).
  Proof.
    intros Hd. unfold enclosing. destruct (Qeq_bool (aff_det (gaff g)) 0) eqn:E.
    { apply Qeq_bool_iff in E. contradiction. }
    simpl. rewrite !map_map. reflexivity.
  Qed.
End Enclosing.

Section BBoxLaws.
  Variable crs : Type.
  Variable crs_eqb : crs -> crs -> bool.
  Notation qbox := (@bbox crs Q).

  Lemma qbox_or_eq (a b : qbox) :
    qbox_or crs_eqb a b =
    if tag_ne crs_eqb (bcrs a) (bcrs b) then Err ECrs
    else Ok (mkBB (Qmin (bl b) (bl a)) (Qmin (bb_ b) (bb_ a)) (Qmax (br b) (br a)) (Qmax (bt b) (bt a)) (bcrs a)).
  Proof. unfold qbox_or, bbox_union; simpl. destruct (tag_ne _ _ _); reflexivity. Qed.

  Lemma qbox_and_eq (a b : qbox) :
    qbox_and crs_eqb a b =
    if tag_ne crs_eqb (bcrs a) (bcrs b) then Err ECrs
    else Ok (mkBB (Qmax (bl b) (bl a)) (Qmax (bb_ b) (bb_ a)) (Qmin (br b) (br a)) (Qmin (bt b) (bt a)) (bcrs a)).
  Proof. unfold qbox_and, bbox_intersection; simpl. destruct (tag_ne _ _ _); reflexivity. Qed.

  Lemma qbox_or_inv (a b u : qbox) : qbox_or crs_eqb a b = Ok u ->
    tag_ne crs_eqb (bcrs a) (bcrs b) = false /\
    u = mkBB (Qmin (bl b) (bl a)) (Qmin (bb_ b) (bb_ a)) (Qmax (br b) (br a)) (Qmax (bt b) (bt a)) (bcrs a).
  Proof. rewrite qbox_or_eq. destruct (tag_ne _ _ _); [discriminate|]. intros [= <-]. auto. Qed.

  Lemma qbox_and_inv (a b u : qbox) : qbox_and crs_eqb a b = Ok u ->
    tag_ne crs_eqb (bcrs a) (bcrs b) = false /\
    u = mkBB (Qmax (bl b) (bl a)) (Qmax (bb_ b) (bb_ a)) (Qmin (br b) (br a)) (Qmin (bt b) (bt a)) (bcrs a).
  Proof. rewrite qbox_and_eq. destruct (tag_ne _ _ _); [discriminate|]. intros [= <-]. auto. Qed.

  Lemma Qmin_max_absorb x y : Qmin (Qmax y x) x == x.
  Proof. rewrite Q.min_comm, Q.max_comm. apply Q.max_min_absorption. Qed.

  Lemma Qmax_min_absorb x y : Qmax (Qmin y x) x == x.
  Proof. rewrite Q.max_comm, Q.min_comm. apply Q.min_max_absorption. Qed.

  Lemma box_le_refl (x : qbox) : box_le x x.
  Proof. unfold box_le; repeat split; apply Qle_refl. Qed.
End BBoxLaws.

Lemma intersection_pixel_set (u : pbox) (ps : list pbox) :
  (0 <= pnx u)%Z -> (0 <= pny u)%Z ->
  (forall i, in_cols u i <-> (forall p, In p ps -> in_cols p i)) ->
  (forall j, in_rows u j <-> (forall p, In p ps -> in_rows p j)) ->
  (forall i j, in_pix u i j <-> (forall p, In p ps -> in_pix p i j)) /\
  ((pnx u = 0 \/ pny u = 0)%Z <-> (forall i j, ~ in_pix u i j)).
Proof.
  intros Hx Hy Hc Hr. split.
  - intros i j. unfold in_pix. rewrite Hc, Hr. split.
    + intros (A & B) p Hp. auto.
    + intros H. split; intros p Hp; apply (H p Hp).
  - unfold in_pix, in_cols, in_rows. split.
    + intros [E | E] i j; lia.
    + intros H. destruct (Z.eq_dec (pnx u) 0) as [E | E]; [auto|].
      destruct (Z.eq_dec (pny u) 0) as [E' | E']; [auto|].
      exfalso. apply (H (px u) (py u)). lia.
Qed.
