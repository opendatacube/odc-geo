(** Lemmas for property C14 (GridSpec tiles the plane).  A Bin1D is reduced to the floor
    position [kpos] of a coordinate and the [slot] of an index (both in units of the bin size
    from the origin); a GridSpec is two bins, and every statement is proved per axis. *)
From Coq Require Import ZArith QArith Qround Qabs Qpower List Bool Lia Lqa FinFun.
From OG Require Import Base.Result Base.QZ Base.QMinMax Base.ZRange Model.GridSpec.
Import ListNotations.
Open Scope Q_scope.

Lemma prod_pos_iff (n : Z) (r : Q) : 0 < inject_Z n * Qabs r <-> (1 <= n)%Z /\ ~ r == 0.
Proof.
  split.
  - intros H. split.
    + destruct (Z_lt_le_dec 0 n) as [L|L]; [lia|].
      assert (inject_Z n <= 0) by (change 0 with (inject_Z 0); rewrite <- Zle_Qle; exact L).
      pose proof (Qabs_nonneg r). nra.
    + intros E. rewrite E in H. change (Qabs 0) with 0 in H. lra.
  - intros [Hn Hr]. apply Qmult_lt_0_compat; [apply inject_Z_gt0; lia | apply Qabs_nonzero; exact Hr].
Qed.

Definition bin_ok (b : bin1d) : Prop := 0 < b_sz b /\ (b_dir b = 1%Z \/ b_dir b = (-1)%Z).

Lemma bin_new_iff sz o d b :
  bin_new sz o d = Ok b <-> (0 < sz /\ (d = 1%Z \/ d = (-1)%Z)) /\ b = mkBin sz o d.
Proof.
  unfold bin_new. destruct ((d =? -1)%Z || (d =? 1)%Z) eqn:Ed; simpl.
  - apply orb_true_iff in Ed. rewrite !Z.eqb_eq in Ed.
    destruct (Qlt_bool 0 sz) eqn:Es; simpl.
    + apply Qlt_bool_true in Es. split; [intros [= <-]; tauto | intros [_ ->]; reflexivity].
    + apply Qlt_bool_false in Es. split; [discriminate | intros [[C _] _]; lra].
  - apply orb_false_iff in Ed. rewrite !Z.eqb_neq in Ed.
    split; [discriminate | intros [[_ C] _]; lia].
Qed.

Lemma bin_new_ok {sz o d b} : bin_new sz o d = Ok b -> bin_ok b.
Proof. intros E. apply bin_new_iff in E. destruct E as [H ->]. exact H. Qed.

Lemma bin_new_succeeds sz o d : 0 < sz -> (d = 1%Z \/ d = (-1)%Z) ->
  bin_new sz o d = Ok (mkBin sz o d).
Proof. intros Hs Hd. apply bin_new_iff. auto. Qed.

Definition slot (b : bin1d) (i : Z) : Z := (b_dir b * i)%Z.

Lemma getitem_slot b i :
  fst (bin_getitem b i) == inject_Z (slot b i) * b_sz b + b_origin b /\
  snd (bin_getitem b i) == inject_Z (slot b i + 1) * b_sz b + b_origin b.
Proof.
  unfold bin_getitem, slot; simpl. rewrite inject_Z_plus, inject_Z_mult.
  change (inject_Z 1) with 1. split; ring.
Qed.

Definition kpos (b : bin1d) (x : Q) : Z := Qfloor ((x - b_origin b) / b_sz b).

Lemma bin_is_kpos b x : bin_bin b x = (b_dir b * kpos b x)%Z.
Proof. reflexivity. Qed.

Lemma kpos_le_iff b x k : 0 < b_sz b ->
  ((k <= kpos b x)%Z <-> inject_Z k * b_sz b + b_origin b <= x).
Proof.
  intros Hs. unfold kpos. rewrite Qfloor_ge_iff, Qdiv_ge_iff by exact Hs.
  split; intros; lra.
Qed.

Lemma kpos_lt_iff b x k : 0 < b_sz b ->
  ((kpos b x < k)%Z <-> x < inject_Z k * b_sz b + b_origin b).
Proof.
  intros Hs. unfold kpos. rewrite Qfloor_lt_iff, Qdiv_lt_iff by exact Hs.
  split; intros; lra.
Qed.

Lemma kpos_mono b x y : 0 < b_sz b -> x <= y -> (kpos b x <= kpos b y)%Z.
Proof.
  intros Hs Hxy. apply kpos_le_iff; [exact Hs|].
  apply Qle_trans with x; [|exact Hxy]. apply kpos_le_iff; [exact Hs | lia].
Qed.

Lemma lo_le_iff b i x : bin_ok b ->
  (fst (bin_getitem b i) <= x <-> (slot b i <= kpos b x)%Z).
Proof.
  intros Hb. rewrite (proj1 (getitem_slot b i)). symmetry. apply kpos_le_iff, Hb.
Qed.

Lemma lt_hi_iff b i x : bin_ok b ->
  (x < snd (bin_getitem b i) <-> (kpos b x <= slot b i)%Z).
Proof.
  intros Hb. rewrite (proj2 (getitem_slot b i)), <- kpos_lt_iff by apply Hb. lia.
Qed.

Lemma slot_inj b i j : bin_ok b -> slot b i = slot b j -> i = j.
Proof. intros [_ [E|E]]; unfold slot; rewrite E; lia. Qed.

Lemma bin_slot b x : bin_ok b -> slot b (bin_bin b x) = kpos b x.
Proof.
  intros [_ [E|E]]; unfold slot; rewrite bin_is_kpos, E; lia.
Qed.

Lemma bin_iff b x i : bin_ok b ->
  (bin_bin b x = i <-> fst (bin_getitem b i) <= x /\ x < snd (bin_getitem b i)).
Proof.
  intros Hb. rewrite lo_le_iff, lt_hi_iff by exact Hb.
  split.
  - intros <-. rewrite bin_slot by exact Hb. lia.
  - intros [H1 H2]. apply (slot_inj b); [exact Hb|]. rewrite bin_slot by exact Hb. lia.
Qed.

Lemma interval_width b i : snd (bin_getitem b i) == fst (bin_getitem b i) + b_sz b.
Proof. unfold bin_getitem; simpl. reflexivity. Qed.

Lemma consecutive_share_endpoint b i :
  (b_dir b = 1%Z -> snd (bin_getitem b i) == fst (bin_getitem b (i + 1))) /\
  (b_dir b = (-1)%Z -> fst (bin_getitem b i) == snd (bin_getitem b (i + 1))).
Proof.
  unfold bin_getitem; simpl. split; intros E; rewrite E, inject_Z_plus.
  - change (inject_Z 1) with 1. ring.
  - change (inject_Z 1) with 1. change (inject_Z (-1)) with (-(1)). ring.
Qed.

(* the left end of interval [j] has floor position [slot b j], which is beyond [slot b i] *)
Lemma slot_lt_disjoint b i j : bin_ok b -> (slot b i < slot b j)%Z ->
  snd (bin_getitem b i) <= fst (bin_getitem b j).
Proof.
  intros Hb L. apply Qnot_lt_le. rewrite lt_hi_iff by exact Hb.
  pose proof (proj1 (lo_le_iff b j _ Hb) (Qle_refl _)). lia.
Qed.

Lemma distinct_disjoint b i j : bin_ok b -> i <> j ->
  snd (bin_getitem b i) <= fst (bin_getitem b j) \/ snd (bin_getitem b j) <= fst (bin_getitem b i).
Proof.
  intros Hb Hij. destruct (Z.lt_total (slot b i) (slot b j)) as [L | [E | L]].
  - left. apply slot_lt_disjoint; assumption.
  - contradict Hij. apply (slot_inj b); assumption.
  - right. apply slot_lt_disjoint; assumption.
Qed.

(** index range covered by a coordinate range, as computed by idx_bounds on one axis *)
Lemma range_iff b a c i : bin_ok b -> a <= c ->
  ((Z.min (bin_bin b a) (bin_bin b c) <= i < Z.max (bin_bin b a) (bin_bin b c) + 1)%Z <->
   fst (bin_getitem b i) <= c /\ a < snd (bin_getitem b i)).
Proof.
  intros Hb Hac. rewrite lo_le_iff, lt_hi_iff by exact Hb.
  pose proof (kpos_mono b a c (proj1 Hb) Hac) as Hk.
  rewrite !bin_is_kpos. unfold slot.
  destruct Hb as [_ [E|E]]; rewrite E; lia.
Qed.

(** which indices a bounding-box query returns, per axis *)
Definition axis_hit (b : bin1d) (tol q1 q2 : Q) (i : Z) : Prop :=
  (q1 + tol <= q2 - tol /\ fst (bin_getitem b i) <= q2 - tol /\ q1 + tol < snd (bin_getitem b i)) \/
  (q2 - tol < q1 + tol /\ fst (bin_getitem b i) <= q1 + tol /\ q2 - tol < snd (bin_getitem b i)).

Lemma axis_hit_iff b tol q1 q2 i : bin_ok b ->
  ((Z.min (bin_bin b (q1 + tol)) (bin_bin b (q2 - tol)) <= i <
    Z.max (bin_bin b (q1 + tol)) (bin_bin b (q2 - tol)) + 1)%Z <-> axis_hit b tol q1 q2 i).
Proof.
  intros Hb. unfold axis_hit.
  destruct (Qlt_le_dec (q2 - tol) (q1 + tol)) as [L|L].
  - rewrite Z.min_comm, Z.max_comm, (range_iff b _ _ i Hb) by lra. split.
    + intros H. right. split; [exact L | exact H].
    + intros [[C _] | [_ H]]; [lra | exact H].
  - rewrite (range_iff b _ _ i Hb L). split.
    + intros H. left. split; [exact L | exact H].
    + intros [[_ H] | [C _]]; [exact H | lra].
Qed.

Lemma axis_hit_wide b tol q1 q2 i : q1 + tol <= q2 - tol ->
  (axis_hit b tol q1 q2 i <->
   fst (bin_getitem b i) <= q2 - tol /\ q1 + tol < snd (bin_getitem b i)).
Proof.
  intros W. unfold axis_hit. split.
  - intros [(_ & H) | (C & _)]; [exact H | lra].
  - intros H. left. split; [exact W | exact H].
Qed.

Lemma axis_hit_overlap b tol q1 q2 i :
  tol < snd (bin_getitem b i) - q1 -> tol < q2 - fst (bin_getitem b i) -> axis_hit b tol q1 q2 i.
Proof.
  intros A B. unfold axis_hit.
  destruct (Qlt_le_dec (q2 - tol) (q1 + tol)); [right | left]; repeat split; lra.
Qed.

Definition gs_ok (g : gridspec) : Prop :=
  bin_ok (g_xbin g) /\ bin_ok (g_ybin g) /\
  (0 < g_nx g)%Z /\ (0 < g_ny g)%Z /\ ~ g_rx g == 0 /\ ~ g_ry g == 0 /\
  b_sz (g_xbin g) == inject_Z (g_nx g) * Qabs (g_rx g) /\
  b_sz (g_ybin g) == inject_Z (g_ny g) * Qabs (g_ry g).

Lemma flipdir_ok f : flipdir f = 1%Z \/ flipdir f = (-1)%Z.
Proof. destruct f; simpl; auto. Qed.

Lemma gs_new_iff ny nx ry rx ox oy fx fy g :
  gs_new ny nx ry rx ox oy fx fy = Ok g <->
  ((1 <= ny)%Z /\ (1 <= nx)%Z /\ ~ ry == 0 /\ ~ rx == 0) /\
  g = mkGS ny nx ry rx ox oy (inject_Z nx * Qabs rx) (inject_Z ny * Qabs ry)
           (mkBin (inject_Z nx * Qabs rx) ox (flipdir fx))
           (mkBin (inject_Z ny * Qabs ry) oy (flipdir fy)).
Proof.
  unfold gs_new. split.
  - intros H. apply bind_ok in H. destruct H as (yb & Hy & H).
    apply bind_ok in H. destruct H as (xb & Hx & H).
    apply bin_new_iff in Hy, Hx. destruct Hy as [[Hy _] ->], Hx as [[Hx _] ->].
    apply prod_pos_iff in Hy, Hx. injection H as <-. split; [tauto | reflexivity].
  - intros [(Hny & Hnx & Hry & Hrx) ->].
    assert (Py : 0 < inject_Z ny * Qabs ry) by (apply prod_pos_iff; auto).
    assert (Px : 0 < inject_Z nx * Qabs rx) by (apply prod_pos_iff; auto).
    rewrite (bin_new_succeeds _ oy _ Py (flipdir_ok fy)). cbn [bind].
    rewrite (bin_new_succeeds _ ox _ Px (flipdir_ok fx)). reflexivity.
Qed.

Lemma gs_new_ok {ny nx ry rx ox oy fx fy g} : gs_new ny nx ry rx ox oy fx fy = Ok g -> gs_ok g.
Proof.
  intros E. apply gs_new_iff in E. destruct E as [(Hny & Hnx & Hry & Hrx) ->].
  unfold gs_ok, bin_ok; simpl.
  split; [split; [apply prod_pos_iff; auto | apply flipdir_ok]|].
  split; [split; [apply prod_pos_iff; auto | apply flipdir_ok]|].
  split; [lia|]. split; [lia|]. split; [exact Hrx|]. split; [exact Hry|]. split; reflexivity.
Qed.

Lemma gs_new_error ny nx ry rx ox oy fx fy :
  ~ ((1 <= ny)%Z /\ (1 <= nx)%Z /\ ~ ry == 0 /\ ~ rx == 0) ->
  exists l, gs_new ny nx ry rx ox oy fx fy = Err (EAssert l).
Proof.
  intros H. destruct (gs_new ny nx ry rx ox oy fx fy) as [g|e] eqn:E.
  - apply gs_new_iff in E. tauto.
  - unfold gs_new, bin_new in E.
    rewrite !(proj2 (orb_true_iff _ _)) in E
      by (destruct fx, fy; simpl; auto).
    simpl in E.
    destruct (Qlt_bool 0 (inject_Z ny * Qabs ry)); simpl in E.
    + destruct (Qlt_bool 0 (inject_Z nx * Qabs rx)); simpl in E; inversion E; eauto.
    + inversion E; eauto.
Qed.

Definition tile_x (g : gridspec) (ix : Z) : Q * Q := bin_getitem (g_xbin g) ix.
Definition tile_y (g : gridspec) (iy : Z) : Q * Q := bin_getitem (g_ybin g) iy.

Lemma pt2idx_iff g x y ix iy : gs_ok g ->
  (pt2idx g x y = (ix, iy) <->
   (fst (tile_x g ix) <= x /\ x < snd (tile_x g ix)) /\
   (fst (tile_y g iy) <= y /\ y < snd (tile_y g iy))).
Proof.
  intros (Hx & Hy & _). unfold pt2idx, tile_x, tile_y.
  rewrite <- (bin_iff _ x ix Hx), <- (bin_iff _ y iy Hy).
  split; [intros E; inversion E; auto | intros [-> ->]; reflexivity].
Qed.

Lemma pt2idx_ext g g' : gs_ok g -> gs_ok g' ->
  (forall i, fst (tile_x g' i) == fst (tile_x g i) /\ snd (tile_x g' i) == snd (tile_x g i)) ->
  (forall i, fst (tile_y g' i) == fst (tile_y g i) /\ snd (tile_y g' i) == snd (tile_y g i)) ->
  forall x y, pt2idx g' x y = pt2idx g x y.
Proof.
  intros Hg Hg' Tx Ty x y. destruct (pt2idx g x y) as [ix iy] eqn:Ep.
  apply (pt2idx_iff g' x y ix iy Hg'). apply (pt2idx_iff g x y ix iy Hg) in Ep.
  destruct (Tx ix) as [A1 A2], (Ty iy) as [B1 B2]. rewrite A1, A2, B1, B2. exact Ep.
Qed.

Lemma tiles_interiors_disjoint g ix iy jx jy x y : gs_ok g -> (ix, iy) <> (jx, jy) ->
  fst (tile_x g ix) < x < snd (tile_x g ix) -> fst (tile_y g iy) < y < snd (tile_y g iy) ->
  fst (tile_x g jx) < x < snd (tile_x g jx) -> fst (tile_y g jy) < y < snd (tile_y g jy) ->
  False.
Proof.
  intros Hg Hne H1 H2 H3 H4. apply Hne.
  assert (E1 : pt2idx g x y = (ix, iy)) by (apply pt2idx_iff; [exact Hg|]; lra).
  assert (E2 : pt2idx g x y = (jx, jy)) by (apply pt2idx_iff; [exact Hg|]; lra).
  congruence.
Qed.

(** one axis of the tile GeoBox: the images [a], [b] of pixel 0 and pixel [n]
    are the two ends of the tile interval [t0, t1], in the order given by the
    sign of the resolution *)
Lemma axis_ends (n : Z) (r t0 t1 sz : Q) :
  (0 < n)%Z -> ~ r == 0 -> sz == inject_Z n * Qabs r -> t1 == t0 + sz ->
  let t := if Qlt_bool 0 r then t0 else t1 in
  let a := r * inject_Z 0 + t in let b := r * inject_Z n + t in
  qmin a b == t0 /\ qmax a b == t1 /\ qmax b a == t1.
Proof.
  intros Hn Hr Hsz Ht1. apply inject_Z_gt0 in Hn. cbv zeta.
  change (inject_Z 0) with 0. set (m := inject_Z n) in *.
  destruct (Qabs_cases r) as [[Hp Ea] | [Hp Ea]]; rewrite Ea in Hsz.
  - rewrite (proj2 (Qlt_bool_true 0 r) Hp).
    assert (0 < m * r) by (apply Qmult_lt_0_compat; assumption).
    rewrite qmin_le, qmax_le, qmax_ge by lra. repeat split; lra.
  - rewrite (proj2 (Qlt_bool_false 0 r) Hp).
    assert (0 < m * - r) by (apply Qmult_lt_0_compat; lra).
    rewrite qmin_ge, qmax_ge, qmax_le by lra. repeat split; lra.
Qed.

Lemma tile_geobox_spec g ix iy : gs_ok g ->
  let b := tile_geobox g (ix, iy) in
  gb_ny b = g_ny g /\ gb_nx b = g_nx g /\ gb_sx b = g_rx g /\ gb_sy b = g_ry g /\
  fst (fst (fst (gbox_bbox b))) == fst (tile_x g ix) /\
  snd (fst (fst (gbox_bbox b))) == fst (tile_y g iy) /\
  snd (fst (gbox_bbox b)) == snd (tile_x g ix) /\
  snd (gbox_bbox b) == snd (tile_y g iy).
Proof.
  intros (Hx & Hy & Hnx & Hny & Hrx & Hry & Esx & Esy). cbv zeta.
  unfold tile_geobox, tile_txy, tile_x, tile_y.
  pose proof (interval_width (g_xbin g) ix) as Wx. pose proof (interval_width (g_ybin g) iy) as Wy.
  destruct (bin_getitem (g_xbin g) ix) as [x0 x1]. destruct (bin_getitem (g_ybin g) iy) as [y0 y1].
  unfold gbox_bbox. simpl. rewrite min4_abba, max4_abba, min4_aabb, max4_aabb.
  destruct (axis_ends (g_nx g) (g_rx g) x0 x1 _ Hnx Hrx Esx Wx) as (A1 & _ & A2).
  destruct (axis_ends (g_ny g) (g_ry g) y0 y1 _ Hny Hry Esy Wy) as (B1 & B2 & _).
  repeat split; assumption.
Qed.

Lemma idx_bounds_spec g tol x1 y1 x2 y2 :
  idx_bounds g tol (x1, y1, x2, y2) =
  (Z.min (bin_bin (g_xbin g) (x1 + tol)) (bin_bin (g_xbin g) (x2 - tol)),
   Z.min (bin_bin (g_ybin g) (y1 + tol)) (bin_bin (g_ybin g) (y2 - tol)),
   Z.max (bin_bin (g_xbin g) (x1 + tol)) (bin_bin (g_xbin g) (x2 - tol)) + 1,
   Z.max (bin_bin (g_ybin g) (y1 + tol)) (bin_bin (g_ybin g) (y2 - tol)) + 1)%Z.
Proof. reflexivity. Qed.

Lemma tiles_iff g tol x1 y1 x2 y2 ix iy : gs_ok g ->
  (In (ix, iy) (tiles g tol (x1, y1, x2, y2)) <->
   axis_hit (g_xbin g) tol x1 x2 ix /\ axis_hit (g_ybin g) tol y1 y2 iy).
Proof.
  intros (Hx & Hy & _). unfold tiles. rewrite idx_bounds_spec.
  rewrite product_In, !zrange_In.
  rewrite (axis_hit_iff _ tol x1 x2 ix Hx), (axis_hit_iff _ tol y1 y2 iy Hy). reflexivity.
Qed.

Lemma tiles_NoDup g tol bnd : NoDup (tiles g tol bnd).
Proof.
  unfold tiles. destruct (idx_bounds g tol bnd) as [[[a b] c] d].
  generalize (zrange_NoDup b d). generalize (zrange b d) as ys.
  induction ys as [|y ys IH]; intros Hnd; simpl; [constructor|].
  inversion Hnd as [|? ? Hy Hys]; subst.
  apply NoDup_app_intro.
  - apply Injective_map_NoDup; [|apply zrange_NoDup]. intros u v E. inversion E. reflexivity.
  - apply IH. exact Hys.
  - intros [u v] H1 H2. apply in_map_iff in H1. destruct H1 as (w & E & _). inversion E; subst.
    apply product_In in H2. destruct H2 as [_ H2]. contradiction.
Qed.

Lemma bin_from_sample_spec idx x0 x1 d : x0 < x1 -> (d = 1%Z \/ d = (-1)%Z) ->
  bin_from_sample idx x0 x1 d = Ok (mkBin (x1 - x0) (x0 - (x1 - x0) * inject_Z idx * inject_Z d) d).
Proof.
  intros Hlt Hd. unfold bin_from_sample.
  apply Qlt_bool_true in Hlt as Hb. rewrite Hb. simpl.
  apply bin_new_succeeds; [lra | exact Hd].
Qed.

(** the resolution [w / n] of a tile of extent [w] gives back the tile size *)
Lemma scale_abs (n : Z) (w : Q) : (1 <= n)%Z -> ~ w == 0 ->
  ~ w / inject_Z n == 0 /\ inject_Z n * Qabs (w / inject_Z n) == Qabs w.
Proof.
  intros Hn Hw. assert (Pn : 0 < inject_Z n) by (apply inject_Z_gt0; lia). split.
  - intros E. apply Hw. assert (E1 : w == w / inject_Z n * inject_Z n) by (field; lra).
    rewrite E1, E. ring.
  - unfold Qdiv. rewrite Qabs_Qmult, (Qabs_pos (/ inject_Z n)).
    + field. lra.
    + apply Qlt_le_weak, Qinv_lt_0_compat, Pn.
Qed.

Lemma from_sample_tile_ok x0 y0 x1 y1 ny nx ix iy fx fy :
  x0 < x1 -> y0 < y1 -> (1 <= ny)%Z -> (1 <= nx)%Z ->
  exists g, from_sample_tile (x0, y0, x1, y1) ny nx ix iy fx fy = Ok g /\ gs_ok g /\
    g_ny g = ny /\ g_nx g = nx /\
    (b_sz (g_xbin g) == x1 - x0 /\
     b_origin (g_xbin g) = x0 - (x1 - x0) * inject_Z ix * inject_Z (flipdir fx) /\
     b_dir (g_xbin g) = flipdir fx) /\
    (b_sz (g_ybin g) == y1 - y0 /\
     b_origin (g_ybin g) = y0 - (y1 - y0) * inject_Z iy * inject_Z (flipdir fy) /\
     b_dir (g_ybin g) = flipdir fy).
Proof.
  intros Lx Ly Hny Hnx. unfold from_sample_tile.
  rewrite (proj2 (andb_false_iff _ _)) by (left; apply Z.eqb_neq; lia).
  rewrite (bin_from_sample_spec ix _ _ _ Lx (flipdir_ok fx)). cbn [bind].
  rewrite (bin_from_sample_spec iy _ _ _ Ly (flipdir_ok fy)). cbn [bind b_sz b_origin].
  rewrite (proj2 (orb_false_iff _ _)) by (split; apply Z.eqb_neq; lia).
  destruct (scale_abs nx (x1 - x0) Hnx) as [Rx Sx]; [lra|].
  destruct (scale_abs ny (- (y1 - y0)) Hny) as [Ry Sy]; [lra|].
  rewrite (Qabs_pos (x1 - x0)) in Sx by lra. rewrite (Qabs_neg (- (y1 - y0))) in Sy by lra.
  epose proof (proj2 (gs_new_iff ny nx _ _ _ _ fx fy _) (conj (conj Hny (conj Hnx (conj Ry Rx))) eq_refl)) as E.
  eexists. split; [exact E|]. split; [exact (gs_new_ok E)|]. simpl.
  split; [reflexivity|]. split; [reflexivity|].
  split; [split; [exact Sx | split; reflexivity] | split; [rewrite Sy; ring | split; reflexivity]].
Qed.

Lemma getitem_ext b b' i : b_sz b' == b_sz b -> b_origin b' == b_origin b -> b_dir b' = b_dir b ->
  fst (bin_getitem b' i) == fst (bin_getitem b i) /\ snd (bin_getitem b' i) == snd (bin_getitem b i).
Proof.
  intros E1 E2 E3. unfold bin_getitem; simpl. rewrite E1, E2, E3. split; reflexivity.
Qed.

Lemma dir_sq d : (d = 1%Z \/ d = (-1)%Z) -> inject_Z d * inject_Z d == 1.
Proof. exact (QZ.dir_sq d). Qed.

Lemma resample_axis b j : bin_ok b ->
  let x0 := fst (bin_getitem b j) in let x1 := snd (bin_getitem b j) in
  x0 < x1 /\ x1 - x0 == b_sz b /\
  x0 - (x1 - x0) * inject_Z j * inject_Z (b_dir b) == b_origin b.
Proof.
  intros [Hs Hd]. cbv zeta. unfold bin_getitem; simpl.
  repeat split; lra.
Qed.

Lemma from_sample_tile_spec g jx jy fx fy : gs_ok g ->
  b_dir (g_xbin g) = flipdir fx -> b_dir (g_ybin g) = flipdir fy ->
  exists g',
    from_sample_tile (fst (tile_x g jx), fst (tile_y g jy), snd (tile_x g jx), snd (tile_y g jy))
                     (g_ny g) (g_nx g) jx jy fx fy = Ok g' /\
    g_ny g' = g_ny g /\ g_nx g' = g_nx g /\
    (forall i, fst (tile_x g' i) == fst (tile_x g i) /\ snd (tile_x g' i) == snd (tile_x g i)) /\
    (forall i, fst (tile_y g' i) == fst (tile_y g i) /\ snd (tile_y g' i) == snd (tile_y g i)) /\
    (forall x y, pt2idx g' x y = pt2idx g x y).
Proof.
  intros Hg Dx Dy. pose proof Hg as (Hx & Hy & Hnx & Hny & _).
  destruct (resample_axis _ jx Hx) as (Lx & Wx & Ox), (resample_axis _ jy Hy) as (Ly & Wy & Oy).
  cbv zeta in *.
  destruct (from_sample_tile_ok _ _ _ _ (g_ny g) (g_nx g) jx jy fx fy Lx Ly)
    as (g' & E & Hg' & F1 & F2 & (Sx & Ox' & Dx') & (Sy & Oy' & Dy')); [lia | lia |].
  assert (Tx : forall i, fst (tile_x g' i) == fst (tile_x g i) /\ snd (tile_x g' i) == snd (tile_x g i)).
  { intros i. apply getitem_ext; [rewrite Sx; exact Wx | rewrite Ox', <- Dx; exact Ox | congruence]. }
  assert (Ty : forall i, fst (tile_y g' i) == fst (tile_y g i) /\ snd (tile_y g' i) == snd (tile_y g i)).
  { intros i. apply getitem_ext; [rewrite Sy; exact Wy | rewrite Oy', <- Dy; exact Oy | congruence]. }
  exists g'. split; [exact E|]. split; [exact F1|]. split; [exact F2|].
  split; [exact Tx|]. split; [exact Ty|]. exact (pt2idx_ext g g' Hg Hg' Tx Ty).
Qed.

Lemma pow2_shift z : (0 <= z)%Z -> Qpower 2 (1 - z) == 2 / inject_Z (2 ^ z).
Proof.
  intros Hz. replace (1 - z)%Z with (1 + - z)%Z by lia.
  rewrite Qpower_plus by (intros C; discriminate C).
  rewrite Qpower_opp. rewrite (Zpower_Qpower 2 z Hz).
  change (inject_Z 2) with 2. change (2 ^ 1) with 2. reflexivity.
Qed.

Lemma pow2_pos z : (0 <= z)%Z -> 0 < inject_Z (2 ^ z).
Proof. intros Hz. apply inject_Z_gt0, Z.pow_pos_nonneg; lia. Qed.

(* an index whose interval of width [t] meets (0, P t) lies in 0..P-1 *)
Lemma index_range (t : Q) (i P : Z) : 0 < t ->
  inject_Z i * t < inject_Z P * t -> 0 < (inject_Z i + 1) * t -> (0 <= i < P)%Z.
Proof.
  intros Ht H1 H2. apply Qmult_lt_r in H1; [|exact Ht]. rewrite <- Zlt_Qlt in H1.
  rewrite <- (Qmult_0_l t) in H2. apply Qmult_lt_r in H2; [|exact Ht].
  change 1 with (inject_Z 1) in H2. rewrite <- inject_Z_plus in H2.
  change 0 with (inject_Z 0) in H2. rewrite <- Zlt_Qlt in H2. lia.
Qed.

Lemma web_tiles_spec h z npix : 0 < h -> (0 <= z)%Z -> (1 <= npix)%Z ->
  exists g, web_tiles h z npix = Ok g /\ gs_ok g /\ g_ny g = npix /\ g_nx g = npix /\
    let tsz := 2 * h / inject_Z (2 ^ z) in
    tsz * inject_Z (2 ^ z) == 2 * h /\
    (forall i, fst (tile_x g i) == - h + inject_Z i * tsz /\
               snd (tile_x g i) == - h + (inject_Z i + 1) * tsz) /\
    (forall j, fst (tile_y g j) == h - (inject_Z j + 1) * tsz /\
               snd (tile_y g j) == h - inject_Z j * tsz) /\
    (forall x y, - h <= x < h -> - h <= y < h ->
                 (0 <= fst (pt2idx g x y) < 2 ^ z)%Z /\ (0 <= snd (pt2idx g x y) < 2 ^ z)%Z).
Proof.
  intros Hh Hz Hn. unfold web_tiles.
  pose proof (pow2_pos z Hz) as Pp.
  assert (T : h * Qpower 2 (1 - z) == 2 * h / inject_Z (2 ^ z)).
  { rewrite pow2_shift by exact Hz. field. lra. }
  set (t := h * Qpower 2 (1 - z)) in *.
  assert (Tp : 0 < t) by (rewrite T; apply Qlt_shift_div_l; lra).
  rewrite !qmin_le, !qmax_le by lra.
  destruct (from_sample_tile_ok (- h) (h - t) (- h + t) h npix npix 0 0 false true)
    as (g & E & Hg & F1 & F2 & (Sx & Ox & Dx) & (Sy & Oy & Dy)); [lra | lra | lia | lia |].
  assert (Tx : forall i, fst (tile_x g i) == - h + inject_Z i * t /\
                         snd (tile_x g i) == - h + (inject_Z i + 1) * t).
  { intros i. unfold tile_x, bin_getitem; simpl. rewrite Sx, Ox, Dx. simpl. split; ring. }
  assert (Ty : forall j, fst (tile_y g j) == h - (inject_Z j + 1) * t /\
                         snd (tile_y g j) == h - inject_Z j * t).
  { intros j. unfold tile_y, bin_getitem; simpl. rewrite Sy, Oy, Dy. simpl. split; ring. }
  exists g. split; [exact E|]. split; [exact Hg|]. split; [exact F1|]. split; [exact F2|].
  assert (Tz : t * inject_Z (2 ^ z) == 2 * h) by (rewrite T; field; lra).
  cbv zeta. split; [rewrite <- T; exact Tz|].
  split; [intros i; rewrite <- T; apply Tx|]. split; [intros j; rewrite <- T; apply Ty|].
  intros x y Hx Hy. destruct (pt2idx g x y) as [ix iy] eqn:Ep. simpl.
  apply pt2idx_iff in Ep; [|exact Hg]. destruct Ep as [[X1 X2] [Y1 Y2]].
  rewrite (proj1 (Tx ix)) in X1. rewrite (proj2 (Tx ix)) in X2.
  rewrite (proj1 (Ty iy)) in Y1. rewrite (proj2 (Ty iy)) in Y2.
  split; apply (index_range t _ _ Tp); lra.
Qed.
