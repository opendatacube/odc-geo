(** snap_scale, snap_affine, is_affine_st and clamp.  [snap_scale_result] lists
    the outcomes of snap_scale: [s] unchanged, an integer within [tol] of [s], or
    [1 / n] for an integer [n] within [tol] of [1 / s]; idempotence of snap_scale
    and of snap_affine goes through these cases. *)
From Coq Require Import ZArith QArith Qabs Lia Lqa.
From OG Require Import Base.Result Base.QZ Model.MathH Proofs.MathHBasics.
Open Scope Q_scope.

Lemma Qabs_one_over q : Qabs (1 / q) == / Qabs q.
Proof.
  unfold Qdiv. rewrite Qabs_Qmult, Qabs_Qinv.
  setoid_replace (Qabs 1) with 1 by reflexivity. ring.
Qed.

Lemma Qinv_gt_1 a : 0 < a -> a < 1 -> 1 < / a.
Proof.
  intros H0 H1. setoid_replace 1 with (/ 1) at 1 by reflexivity.
  assert (P1 : 0 < 1) by reflexivity.
  exact (proj1 (Qinv_lt_contravar a 1 H0 P1) H1).
Qed.

Lemma Qinv_le_half a : 2 <= a -> 0 < / a /\ / a <= 1 # 2.
Proof.
  intros H. assert (P : 0 < a) by lra. split.
  - apply Qinv_lt_0_compat. exact P.
  - setoid_replace (/ a) with (1 / a) by (field; lra).
    apply Qle_shift_div_r; [exact P | lra].
Qed.

Lemma Qabs_inject_Z n : Qabs (inject_Z n) = inject_Z (Z.abs n).
Proof. reflexivity. Qed.

Lemma Qabs_inject_Z_ge1 n : n <> 0%Z -> 1 <= Qabs (inject_Z n).
Proof. intros N. rewrite Qabs_inject_Z. unfold Qle. simpl. lia. Qed.

Lemma Qabs_inject_Z_ge2 n : n <> 0%Z -> ~ Qabs (inject_Z n) == 1 -> 2 <= Qabs (inject_Z n).
Proof.
  rewrite Qabs_inject_Z. intros N N1.
  destruct (Z.eq_dec (Z.abs n) 1) as [E|E]; [rewrite E in N1; destruct N1; reflexivity|].
  unfold Qle. simpl. lia.
Qed.

Lemma maybe_int_idem x tol : 0 < tol -> maybe_int (maybe_int x tol) tol = maybe_int x tol.
Proof.
  intros Ht. unfold maybe_int at 2 3. destruct (maybe_int_z x tol) as [n|] eqn:E.
  - unfold maybe_int. rewrite maybe_int_z_of_Z by exact Ht. reflexivity.
  - unfold maybe_int. rewrite E. reflexivity.
Qed.

Lemma maybe_int_close x tol : 0 < tol -> Qabs (maybe_int x tol - x) < tol.
Proof.
  intros Ht. destruct (maybe_int_cases x tol) as [(n & _ & -> & Ha & _)|(_ & -> & _)].
  - setoid_replace (inject_Z n - x) with (- (x - inject_Z n)) by ring. rewrite Qabs_opp. exact Ha.
  - setoid_replace (x - x) with 0 by ring. exact Ht.
Qed.

Lemma maybe_int_integer_or_same x tol :
  (exists n : Z, maybe_int x tol = inject_Z n) \/ maybe_int x tol = x.
Proof.
  destruct (maybe_int_cases x tol) as [(n & _ & E & _)|(_ & E & _)]; [left; eauto | right; exact E].
Qed.

Inductive snap_scale_result (s tol r : Q) : Prop :=
| SS_same : r = s -> snap_scale_result s tol r
| SS_int (n : Z) : r = inject_Z n -> Qabs (s - inject_Z n) < tol -> 1 - tol <= Qabs s ->
                   snap_scale_result s tol r
| SS_inv (n : Z) : r = 1 / inject_Z n -> n <> 0%Z -> ~ s == 0 -> Qabs (1 / s - inject_Z n) < tol ->
                   Qabs s < 1 - tol -> snap_scale_result s tol r.

Lemma snap_scale_spec s tol : 0 < tol ->
  exists r, snap_scale s tol = Ok r /\ snap_scale_result s tol r.
Proof.
  intros Ht. unfold snap_scale.
  destruct (Qle_bool_spec (1 - tol) (Qabs s)) as [E1|E1].
  - eexists. split; [reflexivity|].
    destruct (maybe_int_cases s tol) as [(n & _ & -> & Ha & _)|(_ & -> & _)].
    + eapply SS_int; eauto.
    + apply SS_same. reflexivity.
  - destruct (Qltb_spec (Qabs s) tol) as [E2|E2].
    + eexists. split; [reflexivity|]. apply SS_same. reflexivity.
    + assert (Ns : ~ s == 0).
      { intros Z0. rewrite Z0 in E2. simpl in E2. lra. }
      rewrite (Qeq_bool_false _ _ Ns).
      destruct (maybe_int_z (1 / s) tol) as [n|] eqn:E4.
      * apply maybe_int_z_some in E4. destruct E4 as (Ha & _).
        assert (Nn : n <> 0%Z).
        { intros ->. setoid_replace (1 / s - inject_Z 0) with (1 / s) in Ha by (simpl; ring).
          rewrite Qabs_one_over in Ha.
          assert (P : 0 < Qabs s) by lra.
          pose proof (Qinv_gt_1 (Qabs s) P). lra. }
        rewrite (proj2 (Z.eqb_neq n 0) Nn).
        eexists. split; [reflexivity|]. eapply SS_inv; eauto.
      * eexists. split; [reflexivity|]. apply SS_same. reflexivity.
Qed.

Lemma snap_scale_complete s tol : 0 < tol ->
  (1 - tol <= Qabs s -> forall k : Z, Qabs (s - inject_Z k) < tol ->
     exists n : Z, snap_scale s tol = Ok (inject_Z n) /\ Qabs (s - inject_Z n) < tol) /\
  (Qabs s < 1 - tol -> tol <= Qabs s -> forall k : Z, Qabs (1 / s - inject_Z k) < tol ->
     exists n : Z, n <> 0%Z /\ snap_scale s tol = Ok (1 / inject_Z n) /\ Qabs (1 / s - inject_Z n) < tol).
Proof.
  intros Ht. split.
  - intros Hs k Hk. unfold snap_scale. rewrite (proj2 (Qle_bool_iff _ _) Hs).
    destruct (maybe_int_z_complete s tol k Hk) as (n & En).
    exists n. unfold maybe_int. rewrite En. split; [reflexivity|].
    apply maybe_int_z_some in En. tauto.
  - intros Hs Hl k Hk.
    destruct (snap_scale_spec s tol Ht) as (r & E & R).
    unfold snap_scale in E |- *.
    rewrite (proj2 (Qle_bool_false _ _) Hs), (proj2 (Qltb_false _ _) Hl) in *.
    destruct (Qeq_bool s 0); [discriminate|].
    destruct (maybe_int_z_complete (1 / s) tol k Hk) as (n & En). rewrite En in *.
    destruct (n =? 0)%Z eqn:E5; [discriminate|].
    exists n. split; [apply Z.eqb_neq; exact E5|]. split; [reflexivity|].
    apply maybe_int_z_some in En. tauto.
Qed.

Lemma snap_scale_of_Z n tol : 0 < tol -> tol < 1 # 2 -> n <> 0%Z ->
  snap_scale (inject_Z n) tol = Ok (inject_Z n).
Proof.
  intros Ht Hh N. unfold snap_scale.
  pose proof (Qabs_inject_Z_ge1 n N) as G.
  rewrite (proj2 (Qle_bool_iff _ _)) by lra. unfold maybe_int. rewrite maybe_int_z_of_Z by exact Ht. reflexivity.
Qed.

Lemma snap_scale_of_inv n tol : 0 < tol -> tol < 1 # 2 -> n <> 0%Z ->
  exists r, snap_scale (1 / inject_Z n) tol = Ok r /\ r == 1 / inject_Z n.
Proof.
  intros Ht Hh N. pose proof (Qabs_inject_Z_ge1 n N) as G.
  assert (Q0 : ~ inject_Z n == 0) by (intros E; rewrite E in G; simpl in G; lra).
  destruct (snap_scale_spec (1 / inject_Z n) tol Ht) as (r & E & R). exists r. split; [exact E|].
  destruct R as [-> | m -> Ha Hs | m -> _ _ Ha _]; [reflexivity | |].
  - (* an integer within tol of 1/n while |1/n| > 1/2: only for |n| = 1, where 1/n = n *)
    rewrite Qabs_one_over in Hs. destruct (Qeq_dec (Qabs (inject_Z n)) 1) as [A1|A1].
    + assert (En : 1 / inject_Z n == inject_Z n).
      { destruct (Qabs_cases (inject_Z n)) as [(?&E1)|(?&E1)]; rewrite E1 in A1.
        - rewrite A1. reflexivity.
        - setoid_replace (inject_Z n) with (- (1)) by lra. reflexivity. }
      rewrite En in Ha |- *. apply Qabs_Qlt_condition in Ha. rewrite (inject_Z_close m n); [reflexivity | lra..].
    + destruct (Qinv_le_half _ (Qabs_inject_Z_ge2 n N A1)). lra.
  - (* n is the integer within tol of 1/(1/n) *)
    setoid_replace (1 / (1 / inject_Z n)) with (inject_Z n) in Ha by (field; repeat split; try exact Q0; lra).
    apply Qabs_Qlt_condition in Ha. rewrite (inject_Z_close m n); [reflexivity | lra..].
Qed.

Lemma snap_scale_idempotent s tol r : 0 < tol -> tol < 1 # 2 ->
  snap_scale s tol = Ok r -> exists r', snap_scale r tol = Ok r' /\ r' == r.
Proof.
  intros Ht Hh H. destruct (snap_scale_spec s tol Ht) as (r0 & E & R).
  rewrite H in E. injection E as E'. subst r0.
  destruct R as [E1 | n E1 Ha Hs | n E1 Nn Ns Ha Hs]; subst r.
  - exists s. split; [exact H | reflexivity].
  - assert (N : n <> 0%Z).
    { intros ->. setoid_replace (s - inject_Z 0) with s in Ha by (simpl; ring). lra. }
    exists (inject_Z n). split; [apply snap_scale_of_Z; assumption | reflexivity].
  - apply snap_scale_of_inv; assumption.
Qed.

Definition rotated (A : aff) (tol : Q) : Prop := tol < Qabs (ab A) \/ tol < Qabs (ad A).

Lemma rotated_bool A tol :
  (Qltb tol (Qabs (ab A)) || Qltb tol (Qabs (ad A))) = true <-> rotated A tol.
Proof.
  unfold rotated. rewrite orb_true_iff, !Qltb_true. tauto.
Qed.

Lemma snap_affine_not_rotated A ttol stol tol : ~ rotated A tol -> 0 < stol ->
  exists sx sy,
    snap_affine A ttol stol tol = Ok (mkAff sx 0 (maybe_int (ac A) ttol) 0 sy (maybe_int (af A) ttol)) /\
    snap_scale (aa A) stol = Ok sx /\ snap_scale (ae A) stol = Ok sy /\
    Qabs (ab A) <= tol /\ Qabs (ad A) <= tol.
Proof.
  intros H Hs. unfold snap_affine.
  destruct (Qltb tol (Qabs (ab A)) || Qltb tol (Qabs (ad A))) eqn:E.
  - destruct H. apply rotated_bool. exact E.
  - apply orb_false_iff in E. destruct E as [E1%Qltb_false E2%Qltb_false].
    destruct (snap_scale_spec (aa A) stol Hs) as (sx & -> & _).
    destruct (snap_scale_spec (ae A) stol Hs) as (sy & -> & _).
    simpl. exists sx, sy. auto.
Qed.

Lemma snap_affine_idempotent A ttol stol tol B :
  0 < ttol -> 0 < stol -> stol < 1 # 2 ->
  snap_affine A ttol stol tol = Ok B ->
  exists B', snap_affine B ttol stol tol = Ok B' /\ aff_eq B' B.
Proof.
  intros Htt Hs Hh H.
  assert (Refl : aff_eq B B) by (unfold aff_eq; repeat split; reflexivity).
  unfold snap_affine in H.
  destruct (Qltb tol (Qabs (ab A)) || Qltb tol (Qabs (ad A))) eqn:E.
  - injection H as <-. exists A. split; [|exact Refl].
    unfold snap_affine. rewrite E. reflexivity.
  - destruct (snap_scale (aa A) stol) as [sx|] eqn:Ex; [|discriminate].
    destruct (snap_scale (ae A) stol) as [sy|] eqn:Ey; [|discriminate].
    simpl in H. injection H as <-.
    unfold snap_affine. cbn [aa ab ac ad ae af].
    destruct (Qltb tol (Qabs 0) || Qltb tol (Qabs 0)) eqn:E0.
    + eexists. split; [reflexivity|]. unfold aff_eq; simpl; repeat split; reflexivity.
    + destruct (snap_scale_idempotent _ _ _ Hs Hh Ex) as (sx' & -> & Exx).
      destruct (snap_scale_idempotent _ _ _ Hs Hh Ey) as (sy' & -> & Eyy).
      simpl. eexists. split; [reflexivity|].
      rewrite !maybe_int_idem by exact Htt.
      unfold aff_eq; simpl; repeat split; try reflexivity; assumption.
Qed.

Lemma is_affine_st_iff A tol :
  is_affine_st A tol = true <-> Qabs (ab A) < tol /\ Qabs (ad A) < tol.
Proof.
  unfold is_affine_st. rewrite andb_true_iff, !Qltb_true. tauto.
Qed.

Lemma is_affine_st_not_rotated A tol : is_affine_st A tol = true -> ~ rotated A tol.
Proof.
  rewrite is_affine_st_iff. unfold rotated. intros [H1 H2] [H|H]; lra.
Qed.

Lemma clamp_spec x lo up : lo <= up ->
  exists r, clamp x lo up = Ok r /\ lo <= r /\ r <= up /\
            (lo <= x -> x <= up -> r = x) /\ (x < lo -> r = lo) /\ (up < x -> r = up).
Proof.
  intros H. unfold clamp. rewrite (proj2 (Qle_bool_iff _ _) H). eexists. split; [reflexivity|].
  destruct (Qltb_spec x lo); [|destruct (Qltb_spec up x)];
    repeat split; try lra; intros; try reflexivity; lra.
Qed.

Lemma clamp_err x lo up : up < lo -> clamp x lo up = Err (EAssert 152).
Proof.
  intros H. unfold clamp. rewrite (proj2 (Qle_bool_false _ _) H). reflexivity.
Qed.

Lemma clampZ_spec x lo up : (lo <= up)%Z ->
  exists r, clampZ x lo up = Ok r /\ (lo <= r <= up)%Z /\ r = Z.max lo (Z.min x up).
Proof.
  intros H. unfold clampZ. rewrite (proj2 (Z.leb_le _ _) H). eexists. split; [reflexivity|].
  destruct (Z.ltb_spec x lo); [|destruct (Z.ltb_spec up x)]; lia.
Qed.
