(** Composition of C05 (offsets computed from the observed (size, id) stream) with C06
    (multi-part assembly preserves the byte stream under every schedule): in the file
    assembled by [mpu_write] along ANY merge tree, the offset derived from the sizes the
    header callback observed addresses exactly the bytes of that chunk (tile). *)
From Coq Require Import ZArith List.
From OG Require Import Base.Result Base.ListSel Model.Mpu Proofs.MpuProofs.
From OG Require Proofs.CogOffsetsProofs.
Import ListNotations.
Open Scope Z_scope.

(** the same function as [CogOffsetsProofs.zsum]; [zsum (firstn n sizes)] is [CogOffsetsProofs.presum sizes n] *)
Definition zsum (l : list Z) : Z := fold_right Z.add 0 l.

Lemma zsum_nonneg_lens {X} (cs : list (list X)) n : 0 <= zsum (firstn n (map len cs)).
Proof.
  apply (CogOffsetsProofs.presum_nonneg (map len cs) n), Forall_map, Forall_forall.
  intros c _. apply len_nonneg.
Qed.

Section Compose.
Context {A CI : Type}.
Variable pw : writer.
Hypothesis Hminw : 0 <= minw pw.

Theorem offsets_address_chunks_in_assembled_file wpc spill (hdr : list A) (t : tree A CI) :
  1 <= wpc -> 0 <= spill -> tree_ok t -> minp pw + nleaves t * wpc <= maxp pw ->
  exists fp log,
    mpu_write fixed pw wpc spill hdr false [] t = Ok (fp, log, obs_of (tree_chunks t)) /\
    let file := concat (map snd fp) in
    let sizes := map fst (obs_of (tree_chunks t)) in
    forall n c, nth_error (tree_chunks t) n = Some c ->
      let off := len hdr + zsum (firstn n sizes) in
      sel file off (off + len (fst c)) = fst c.
Proof.
  intros Hw Hs Hok Hmax.
  destruct (mpu_write_correct pw Hminw wpc spill hdr false [] t Hw Hs Hok Hmax) as (fp & log & E & R).
  exists fp, log. split; [exact E|].
  destruct R as (Hbytes & _). unfold pbytes in Hbytes. cbv zeta. intros n c En.
  rewrite Hbytes. unfold bytes_of.
  assert (Hsz : map fst (obs_of (tree_chunks t)) = map len (map fst (tree_chunks t))).
  { unfold obs_of. rewrite !map_map. reflexivity. }
  rewrite Hsz, app_nil_r.
  apply (CogOffsetsProofs.sel_concat_nth (map fst (tree_chunks t)) hdr n (fst c)), map_nth_error, En.
Qed.

End Compose.
