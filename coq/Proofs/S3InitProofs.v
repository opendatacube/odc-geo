(** C18 — invariants of the two initiation protocols of Model/S3Init.v, for
    every interleaving of any number of threads.

    The invariant ([l_inv], [c_inv]) has the same shape for both systems: a predicate on the
    shared state, for every thread what its program counter lets it know of the shared state
    ([l_pc_ok], [c_pc_ok]), the holder of the lock, the client's log ([log_ok]), and a count
    of the requests not yet passed to the client.  A step re-establishes the view of the
    stepping thread ([*_step1_own]) and does not disturb the view of any other
    ([*_step1_others]): a thread inside the critical section knows the shared state exactly
    and excludes every other from it, a thread outside knows only facts that stay true.
    At the end: the programs and schedules of the examples of Props/C18.v. *)
From Coq Require Import ZArith List Lia.
From OG Require Import Base.Threads Model.S3Init.
Import ListNotations.
Open Scope Z_scope.

Definition progs_ok (progs : list (list op)) : Prop := Forall (Forall op_ok) progs.

Lemma count_ops_cons k o r :
  count_ops k (o :: r) = ((if bool_eqb (opk o) k then 1 else 0) + count_ops k r)%nat.
Proof. unfold count_ops; simpl. destruct (bool_eqb (opk o) k); reflexivity. Qed.

Lemma count_ops_app k a b : count_ops k (a ++ b) = (count_ops k a + count_ops k b)%nat.
Proof. unfold count_ops. rewrite filter_app, app_length. reflexivity. Qed.

Lemma count_ops_concat k l : count_ops k (concat l) = sumf (count_ops k) l.
Proof. induction l as [|a l IH]; simpl; [|rewrite count_ops_app, IH]; reflexivity. Qed.

Lemma count_calls_body k o id log :
  count_calls k (body_call o id :: log)
  = ((if bool_eqb (opk o) k then 1 else 0) + count_calls k log)%nat.
Proof. destruct o, k; reflexivity. Qed.

Definition log_ok (id0 : Z) (log : list call) (creates : nat) : Prop :=
  Forall (fun c => call_id c = id0) log /\
  count_creates log = creates /\
  (creates = 0%nat -> log = []).

Lemma log_ok_create id0 log : log_ok id0 log 0 -> log_ok id0 (KCreate id0 :: log) 1.
Proof.
  intros (_ & _ & Hnil). rewrite (Hnil eq_refl).
  split; [repeat constructor|split; [reflexivity|discriminate]].
Qed.

Lemma log_ok_body id0 log n o : log_ok id0 log (S n) -> log_ok id0 (body_call o id0 :: log) (S n).
Proof.
  intros (Hall & Hcnt & _). split; [|split; [|discriminate]].
  - constructor; [destruct o; reflexivity|exact Hall].
  - destruct o; exact Hcnt.
Qed.

Lemma log_ok_calls id0 log c :
  log_ok id0 log c -> (c <= 1)%nat ->
  forall x, In x log -> call_id x = id0 /\ In (KCreate id0) log.
Proof.
  intros (Hall & Hcnt & Hnil) Hle x Hx. split; [eapply Forall_forall in Hall; eauto|].
  destruct c as [|[|c]]; [rewrite Hnil in Hx by reflexivity; contradiction| |lia].
  clear - Hall Hcnt. induction Hall as [|a l Ea _ IH]; [discriminate|].
  destruct a; simpl in *; auto. left; congruence.
Qed.

Lemma log_ok_done id0 log c ops :
  log_ok id0 log c -> (c <= 1)%nat -> (forall k, count_calls k log = count_ops k ops) ->
  ops <> [] -> c = 1%nat.
Proof.
  intros (_ & _ & Hnil) Hle Hc Hne.
  destruct c as [|[|c]]; [exfalso|reflexivity|lia].
  destruct ops as [|o r]; [congruence|].
  specialize (Hc (opk o)). rewrite (Hnil eq_refl), count_ops_cons in Hc.
  destruct (opk o); discriminate.
Qed.

Section LocalProofs.
  Variable new_id : nat -> Z.
  Hypothesis new_id_nonempty : forall k, new_id k <> 0.
  Let id0 := new_id 0%nat.

  Definition l_locked (pc : lpc) : bool :=
    match pc with
    | LpRecheck | LpAssertInit | LpCreate | LpStore _ | LpRelease _ => true
    | _ => false
    end.

  (** the shared [mpu] before the first create, and once the id is stored in it; in between the
      creator is inside the critical section *)
  Definition l_fresh (sh : lshared) : Prop := l_uid sh = 0 /\ l_creates sh = 0%nat.
  Definition l_initd (sh : lshared) : Prop := l_uid sh = id0 /\ l_creates sh = 1%nat.

  Definition l_pc_ok (sh : lshared) (t : nat) (pc : lpc) : Prop :=
    (l_locked pc = true -> l_lock sh = Some t) /\
    match pc with
    | LpStarted | LpRegGet | LpNewLock | LpRegSet | LpAcquire | LpDone => True
    | LpRecheck => l_fresh sh \/ l_initd sh
    | LpAssertInit | LpCreate => l_fresh sh
    | LpStore id => id = id0 /\ l_uid sh = 0 /\ l_creates sh = 1%nat
    | LpRelease e => e = None /\ l_initd sh
    | LpBodyAssert | LpBodyRead => l_initd sh
    | LpBodyCall id => id = id0 /\ l_initd sh
    | LpErr _ => False
    end.

  Definition l_shared_ok (sh : lshared) : Prop :=
    l_fresh sh \/ (l_uid sh = 0 /\ l_creates sh = 1%nat /\ l_lock sh <> None) \/ l_initd sh.

  (** requests of kind [k] that thread [th] has not yet passed to the client (a failed thread
      keeps its count, so that every step preserves the total) *)
  Definition l_pending (k : bool) (th : lthread) : nat :=
    match l_pc th with
    | LpDone => 0
    | _ => (if bool_eqb (opk (l_cur th)) k then 1 else 0) + count_ops k (l_rest th)
    end%nat.

  Record l_inv (progs : list (list op)) (s : lstate) : Prop := {
    li_shared : l_shared_ok (fst s);
    li_log : log_ok id0 (l_log (fst s)) (l_creates (fst s));
    li_threads : forall t th, nth_error (snd s) t = Some th ->
                              l_pc_ok (fst s) t (l_pc th) /\ Forall op_ok (l_rest th);
    li_lock : holder (fun th => l_locked (l_pc th)) (l_lock (fst s)) (snd s);
    li_count : forall k, (sumf (l_pending k) (snd s) + count_calls k (l_log (fst s)))%nat
                         = count_ops k (concat progs) }.

  Lemma l_pending_load k ops : l_pending k (l_load ops) = count_ops k ops.
  Proof.
    destruct ops as [|[p|n] r]; [reflexivity| |simpl; destruct (0 <? n)];
      rewrite count_ops_cons; reflexivity.
  Qed.

  Lemma l_load_ok ops sh t :
    Forall op_ok ops -> l_pc_ok sh t (l_pc (l_load ops)) /\ Forall op_ok (l_rest (l_load ops)).
  Proof.
    intros [|[p|n] r Ho Hr]; simpl; [| |apply Z.ltb_lt in Ho; rewrite Ho];
      (split; [split; [discriminate|exact I]|auto]).
  Qed.

  Lemma l_inv_init reg0 progs : progs_ok progs -> l_inv progs (l_init reg0 progs).
  Proof.
    intros Hp. constructor; simpl.
    - left; split; reflexivity.
    - repeat split; auto.
    - intros t th H. apply nth_error_map_some in H. destruct H as (p & Hp' & ->).
      apply l_load_ok. eapply Forall_forall in Hp; eauto. eapply nth_error_In; eauto.
    - discriminate.
    - intros k. rewrite sumf_map, (sumf_ext _ (count_ops k)), count_ops_concat.
      + apply Nat.add_0_r.
      + intros p _. apply l_pending_load.
  Qed.

  Lemma l_step1_own sh t th :
    l_shared_ok sh -> l_pc_ok sh t (l_pc th) -> Forall op_ok (l_rest th) ->
    match l_step1 new_id true t sh th with
    | Some (_, sh', th') => l_shared_ok sh' /\ l_pc_ok sh' t (l_pc th') /\ Forall op_ok (l_rest th')
    | None => True
    end.
  Proof.
    pose proof (new_id_nonempty 0%nat) as Hid. fold id0 in Hid.
    destruct sh as [uid lock creates log reg]; destruct th as [pc cur rest].
    unfold l_shared_ok, l_pc_ok, l_fresh, l_initd; simpl.
    intros Hsh (Hlk & Hpc) Hrest.
    destruct pc; simpl in *; auto.
    - (* Started *)
      destruct (Z.eqb_spec uid 0); simpl.
      + repeat split; auto; discriminate.
      + repeat split; auto; try discriminate; intuition congruence.
    - (* RegGet *)
      destruct reg; simpl; repeat split; auto; discriminate.
    (* NewLock, RegSet: closed by [auto] *)
    - (* Acquire: the lock is free, so no create is waiting to be stored *)
      destruct lock; [exact I|]. simpl.
      repeat split; auto; destruct Hsh as [?|[(?&?&?)|?]]; auto; congruence.
    - (* Recheck *)
      destruct (Z.eqb_spec uid 0); simpl;
        repeat split; auto; destruct Hpc as [(?&?)|(?&?)]; auto; congruence.
    - (* AssertInit *)
      destruct Hpc as (-> & ->). simpl. repeat split; auto.
    - (* Create *)
      destruct Hpc as (-> & ->).
      repeat split; auto.
      right; left. repeat split; auto. rewrite Hlk by reflexivity. discriminate.
    - (* Store *)
      destruct Hpc as (-> & -> & ->). repeat split; auto; discriminate.
    - (* Release *)
      destruct Hpc as (-> & -> & ->). simpl. repeat split; auto; discriminate.
    - (* BodyAssert *)
      destruct Hpc as (-> & ->).
      destruct (Z.eqb_spec id0 0); [congruence|]. simpl. repeat split; auto; discriminate.
    - (* BodyRead *)
      destruct Hpc as (-> & ->). repeat split; auto; discriminate.
    - (* BodyCall *)
      split; [auto|].
      exact (l_load_ok rest (mkLS uid lock creates (body_call cur id :: log) reg) t Hrest).
  Qed.

  (** only [LpCreate] and the body calls write the log *)
  Lemma l_step1_log sh t th :
    log_ok id0 (l_log sh) (l_creates sh) -> l_pc_ok sh t (l_pc th) ->
    match l_step1 new_id true t sh th with
    | Some (_, sh', _) => log_ok id0 (l_log sh') (l_creates sh')
    | None => True
    end.
  Proof.
    destruct sh as [uid lock creates log reg]; destruct th as [pc cur rest].
    unfold l_pc_ok, l_fresh, l_initd; simpl. intros Hlog (_ & Hpc).
    destruct pc; simpl; auto.
    - destruct lock; auto.
    - destruct Hpc as (_ & ->). apply log_ok_create, Hlog.
    - destruct Hpc as (-> & _ & ->). apply log_ok_body, Hlog.
  Qed.

  (** once initiated, always initiated: [LpCreate] and [LpStore] are only reached before *)
  Lemma l_step1_initd sh t th :
    l_pc_ok sh t (l_pc th) -> l_initd sh ->
    match l_step1 new_id true t sh th with
    | Some (_, sh', _) => l_initd sh'
    | None => True
    end.
  Proof.
    pose proof (new_id_nonempty 0%nat) as Hid. fold id0 in Hid.
    destruct sh as [uid lock creates log reg]; destruct th as [pc cur rest].
    unfold l_pc_ok, l_fresh, l_initd; simpl. intros (_ & Hpc) Hi.
    destruct pc; simpl; auto.
    - destruct lock; auto.
    - destruct Hpc, Hi; congruence.
    - destruct Hpc as (_ & ? & _), Hi; congruence.
  Qed.

  (** outside the critical section a thread's view is at most [l_initd] *)
  Lemma l_pc_ok_unlocked sh sh' t pc :
    l_locked pc = false -> (l_initd sh -> l_initd sh') -> l_pc_ok sh t pc -> l_pc_ok sh' t pc.
  Proof.
    intros L Hi (_ & Hpc). split; [rewrite L; discriminate|].
    destruct pc; try discriminate L; tauto.
  Qed.

  Lemma l_step1_unlocked sh t th t' pc' :
    l_locked (l_pc th) = false -> l_lock sh <> None -> l_pc_ok sh t' pc' ->
    match l_step1 new_id true t sh th with
    | Some (_, sh', _) => l_pc_ok sh' t' pc'
    | None => True
    end.
  Proof.
    destruct sh as [uid lock creates log reg]; destruct th as [pc cur rest]; simpl.
    intros L Hlock H. destruct pc; try discriminate L; simpl; auto.
    destruct lock; [exact I|congruence].
  Qed.

  (** every other thread's view stays valid: if it holds the lock, the stepping thread is
      outside the critical section; if not, its view is stable *)
  Lemma l_step1_others sh t th t' pc' :
    l_pc_ok sh t (l_pc th) -> t' <> t -> l_pc_ok sh t' pc' ->
    match l_step1 new_id true t sh th with
    | Some (_, sh', _) => l_pc_ok sh' t' pc'
    | None => True
    end.
  Proof.
    intros Hpc Hne Hpc'. destruct (l_locked pc') eqn:L.
    - (* [t'] holds the lock, so [t] does not *)
      assert (El : l_lock sh = Some t') by (apply Hpc', L).
      apply l_step1_unlocked; [|congruence|exact Hpc'].
      destruct (l_locked (l_pc th)) eqn:Lt; [|reflexivity].
      apply Hpc in Lt. congruence.
    - pose proof (l_step1_initd sh t th Hpc) as Hi.
      destruct (l_step1 new_id true t sh th) as [[[lb sh'] th']|]; [|exact I].
      apply (l_pc_ok_unlocked sh); assumption.
  Qed.

  (** what a step does to the lock, in the form [holder_upd] asks for *)
  Lemma l_step1_locked sh t th :
    match l_step1 new_id true t sh th with
    | Some (_, sh', th') =>
        (l_lock sh' = l_lock sh /\ (l_locked (l_pc th) = true -> l_locked (l_pc th') = true)) \/
        (l_lock sh' = Some t /\ l_locked (l_pc th') = true) \/
        l_lock sh' = None
    | None => True
    end.
  Proof.
    destruct sh as [uid lock creates log reg]; destruct th as [pc cur rest]; simpl.
    destruct pc; simpl; auto;
      try (destruct lock; [exact I|]); simpl; auto;
      try (left; split; [reflexivity|]; try discriminate; destruct (uid =? 0); auto).
  Qed.

  Lemma l_step1_count k sh t th :
    match l_step1 new_id true t sh th with
    | Some (_, sh', th') =>
        (l_pending k th' + count_calls k (l_log sh'))%nat
        = (l_pending k th + count_calls k (l_log sh))%nat
    | None => True
    end.
  Proof.
    destruct sh as [uid lock creates log reg]; destruct th as [pc cur rest]; simpl.
    destruct pc; simpl; auto.
    - destruct (uid =? 0); reflexivity.
    - destruct reg; reflexivity.
    - destruct lock; reflexivity.
    - destruct (uid =? 0); reflexivity.
    - destruct (uid =? 0); reflexivity.
    - destruct e; reflexivity.
    - destruct (uid =? 0); reflexivity.
    - rewrite l_pending_load, count_calls_body. unfold l_pending; simpl. lia.
  Qed.

  Lemma l_step_inv progs s t lb s' :
    l_inv progs s -> l_step new_id true s t = Some (lb, s') -> l_inv progs s'.
  Proof.
    intros [Hsh Hlog Hth Hlock Hcnt] Hstep.
    destruct s as [sh ths]. unfold l_step in Hstep; simpl in *.
    destruct (nth_error ths t) as [th|] eqn:Et; [|discriminate].
    destruct (Hth _ _ Et) as (Hpc & Hrest).
    pose proof (l_step1_own _ t _ Hsh Hpc Hrest) as Hown.
    pose proof (l_step1_log _ t _ Hlog Hpc) as Hlog'.
    pose proof (fun t' pc' => l_step1_others _ _ _ t' pc' Hpc) as Hoth.
    pose proof (l_step1_locked sh t th) as Hl.
    pose proof (fun k => l_step1_count k sh t th) as Hc.
    destruct (l_step1 new_id true t sh th) as [[[lb0 sh0] th0]|]; [|discriminate].
    injection Hstep as <- <-. destruct Hown as (Hsh' & Hpc' & Hrest').
    constructor; simpl; auto.
    - intros t' th' H. apply nth_error_upd_inv in H. destruct H as [(-> & ->)|(Hne & H)]; auto.
      destruct (Hth _ _ H) as (Hp & Hr). auto.
    - eapply holder_upd; eauto.
    - intros k. specialize (Hcnt k). specialize (Hc k).
      pose proof (sumf_upd (l_pending k) ths t th0 th Et). lia.
  Qed.

  Lemma l_reach_inv reg0 progs s :
    progs_ok progs -> l_reach new_id true reg0 progs s -> l_inv progs s.
  Proof.
    intros Hp H; induction H.
    - apply l_inv_init; auto.
    - eapply l_step_inv; eauto.
  Qed.

  Lemma l_run_reach reg0 progs s sched lbs s' :
    l_reach new_id true reg0 progs s -> l_run new_id true s sched = Some (lbs, s') ->
    l_reach new_id true reg0 progs s'.
  Proof.
    revert s lbs; induction sched as [|t r IH]; simpl; intros s lbs Hr H.
    - inversion H; subst; auto.
    - destruct (l_step new_id true s t) as [[lb s1]|] eqn:E; [|discriminate].
      destruct (l_run new_id true s1 r) as [[lbs1 s2]|] eqn:E2; [|discriminate].
      inversion H; subst. eapply IH; [|eauto]. econstructor; eauto.
  Qed.

  Lemma l_creates_le_1 progs s : l_inv progs s -> (l_creates (fst s) <= 1)%nat.
  Proof. intros [H _ _ _ _]. destruct H as [(_&->)|[(_&->&_)|(_&->)]]; lia. Qed.

  Lemma l_no_error progs s t th :
    l_inv progs s -> nth_error (snd s) t = Some th -> l_failed th = false.
  Proof.
    intros [_ _ H _ _] Ht. destruct (H _ _ Ht) as ((_ & Hp) & _).
    unfold l_failed. destruct (l_pc th); auto. contradiction.
  Qed.

  Lemma l_calls_ok progs s :
    l_inv progs s ->
    count_creates (l_log (fst s)) = l_creates (fst s) /\
    forall c, In c (l_log (fst s)) ->
      call_id c = id0 /\ In (KCreate id0) (l_log (fst s)).
  Proof.
    intros Hi. split; [apply Hi|].
    eapply log_ok_calls; [apply Hi|eapply l_creates_le_1, Hi].
  Qed.

  Lemma l_all_done_counts progs s :
    l_inv progs s -> l_all_done s ->
    forall k, count_calls k (l_log (fst s)) = count_ops k (concat progs).
  Proof.
    intros Hi Hd k. rewrite <- (li_count _ _ Hi k), sumf_zero; auto.
    intros th Hin. unfold l_pending. rewrite (Hd _ Hin). reflexivity.
  Qed.

  Lemma l_all_done_one_create progs s :
    l_inv progs s -> l_all_done s -> concat progs <> [] -> l_creates (fst s) = 1%nat.
  Proof.
    intros Hi Hd. eapply log_ok_done; [apply Hi|eapply l_creates_le_1, Hi|].
    apply l_all_done_counts; assumption.
  Qed.

  Lemma l_step_enabled s t th :
    nth_error (snd s) t = Some th ->
    l_locked (l_pc th) = true \/ (l_finished th = false /\ l_lock (fst s) = None) ->
    exists lb s', l_step new_id true s t = Some (lb, s').
  Proof.
    intros Ht Hen. unfold l_step. rewrite Ht.
    assert (E : l_step1 new_id true t (fst s) th <> None).
    { destruct (fst s) as [uid lock creates log reg]; destruct th as [pc cur rest].
      unfold l_finished in Hen; simpl in Hen.
      destruct Hen as [L|(Hf & ->)]; destruct pc; try discriminate; simpl; discriminate. }
    destruct (l_step1 new_id true t (fst s) th) as [[[lb sh'] th']|]; [eauto|congruence].
  Qed.

  (** progress: the lock is always held by a thread that can run, so while some
      thread is unfinished some thread is enabled *)
  Lemma l_progress progs s t th :
    l_inv progs s -> nth_error (snd s) t = Some th -> l_finished th = false ->
    exists t' lb s', l_step new_id true s t' = Some (lb, s').
  Proof.
    intros Hi Ht Hf. destruct (l_lock (fst s)) as [h|] eqn:El.
    - destruct (li_lock _ _ Hi h El) as (thh & Hh & Hlk).
      exists h. apply (l_step_enabled s h thh Hh). left; exact Hlk.
    - exists t. apply (l_step_enabled s t th Ht). right; split; assumption.
  Qed.
End LocalProofs.

Definition cprogs_ok (progs : list (nat * list op)) : Prop :=
  Forall (fun p => Forall op_ok (snd p)) progs.

Section ClusterProofs.
  Variable new_id : nat -> Z.
  Hypothesis new_id_nonempty : forall k, new_id k <> 0.
  Let id0 := new_id 0%nat.

  Definition c_locked (pc : cpc) : bool :=
    match pc with
    | CpVarGet2 | CpSetUid2 _ | CpAssertInit | CpCreate | CpStore _ | CpReadForVar
    | CpVarSet _ | CpRelease _ => true
    | _ => false
    end.

  Definition c_initd (sh : cshared) (w : nat) : Prop := c_uids sh w = id0 /\ c_creates sh = 1%nat.

  (** the variable before the first create, and once the id is published in it; in between the
      creator is inside the critical section *)
  Definition c_fresh (sh : cshared) : Prop :=
    c_var sh = None /\ c_creates sh = 0%nat /\ forall w, c_uids sh w = 0.
  Definition c_published (sh : cshared) : Prop := c_var sh = Some id0 /\ c_creates sh = 1%nat.

  Definition c_pc_ok (sh : cshared) (t w : nat) (pc : cpc) : Prop :=
    (c_locked pc = true -> c_lock sh = Some t) /\
    match pc with
    | CpStarted | CpVarGet1 | CpAcquire | CpDelete | CpDone => True
    | CpSetUid1 id => id = id0 /\ c_creates sh = 1%nat
    | CpVarGet2 => c_fresh sh \/ c_published sh
    | CpSetUid2 id => id = id0 /\ c_published sh
    | CpAssertInit | CpCreate => c_fresh sh
    | CpStore id => id = id0 /\ c_var sh = None /\ c_creates sh = 1%nat
    | CpReadForVar => c_var sh = None /\ c_initd sh w
    | CpVarSet v => v = id0 /\ c_initd sh w
    | CpRelease k => (k = KBody \/ k = KPost) /\ c_published sh /\ c_uids sh w = id0
    | CpPostAssert | CpBodyAssert | CpBodyRead => c_initd sh w
    | CpBodyCall id => id = id0 /\ c_initd sh w
    | CpErr _ => False
    end.

  Definition c_shared_ok (sh : cshared) : Prop :=
    (forall w, c_uids sh w = 0 \/ c_initd sh w) /\
    (c_fresh sh \/ (c_var sh = None /\ c_creates sh = 1%nat /\ c_lock sh <> None) \/ c_published sh).

  Definition c_pending (k : bool) (th : cthread) : nat :=
    match c_pc th with
    | CpDone => 0
    | CpDelete => count_ops k (c_rest th)
    | _ => (if bool_eqb (opk (c_cur th)) k then 1 else 0) + count_ops k (c_rest th)
    end%nat.

  Record c_inv (progs : list (nat * list op)) (s : cstate) : Prop := {
    ci_shared : c_shared_ok (fst s);
    ci_log : log_ok id0 (c_log (fst s)) (c_creates (fst s));
    ci_threads : forall t th, nth_error (snd s) t = Some th ->
                              c_pc_ok (fst s) t (c_wk th) (c_pc th) /\ Forall op_ok (c_rest th);
    ci_lock : holder (fun th => c_locked (c_pc th)) (c_lock (fst s)) (snd s);
    ci_count : forall k, (sumf (c_pending k) (snd s) + count_calls k (c_log (fst s)))%nat
                         = count_ops k (concat (map snd progs)) }.

  Lemma c_pending_load k w ops : c_pending k (c_load w ops) = count_ops k ops.
  Proof.
    destruct ops as [|[p|n] r]; [reflexivity| |simpl; destruct (0 <? n)];
      rewrite count_ops_cons; reflexivity.
  Qed.

  Lemma c_load_wk w ops : c_wk (c_load w ops) = w.
  Proof. destruct ops as [|[p|n] r]; simpl; [| |destruct (0 <? n)]; reflexivity. Qed.

  Lemma c_load_ok w ops sh t w' :
    Forall op_ok ops ->
    c_pc_ok sh t w' (c_pc (c_load w ops)) /\ Forall op_ok (c_rest (c_load w ops)).
  Proof.
    intros [|[p|n] r Ho Hr]; simpl; [| |apply Z.ltb_lt in Ho; rewrite Ho];
      (split; [split; [discriminate|exact I]|auto]).
  Qed.

  Lemma c_inv_init progs : cprogs_ok progs -> c_inv progs (c_init progs).
  Proof.
    intros Hp. constructor; simpl.
    - split; [intros w|]; left; repeat split.
    - repeat split; auto.
    - intros t th H. apply nth_error_map_some in H. destruct H as (p & Hp' & ->).
      apply c_load_ok. eapply Forall_forall in Hp; eauto. eapply nth_error_In; eauto.
    - discriminate.
    - intros k. rewrite sumf_map, (sumf_ext _ (fun p => count_ops k (snd p))),
        count_ops_concat, sumf_map.
      + apply Nat.add_0_r.
      + intros p _. apply c_pending_load.
  Qed.

  Lemma set_uid_same uids w v : set_uid uids w v w = v.
  Proof. unfold set_uid. rewrite Nat.eqb_refl. reflexivity. Qed.

  Lemma set_uid_keep uids w w' v : uids w' = v -> set_uid uids w v w' = v.
  Proof. unfold set_uid. destruct (Nat.eqb w' w); auto. Qed.

  Lemma set_uid_ok uids w (c : nat) :
    c = 1%nat -> (forall w', uids w' = 0 \/ uids w' = id0 /\ c = 1%nat) ->
    forall w', set_uid uids w id0 w' = 0 \/ set_uid uids w id0 w' = id0 /\ c = 1%nat.
  Proof. intros Hc Hu w'. unfold set_uid. destruct (Nat.eqb w' w); auto. Qed.

  Lemma c_step1_own sh t th :
    c_shared_ok sh -> c_pc_ok sh t (c_wk th) (c_pc th) -> Forall op_ok (c_rest th) ->
    match c_step1 new_id t sh th with
    | Some (_, sh', th') =>
        c_deleted sh' = false ->
        c_shared_ok sh' /\ c_pc_ok sh' t (c_wk th') (c_pc th') /\ Forall op_ok (c_rest th')
    | None => True
    end.
  Proof.
    pose proof (new_id_nonempty 0%nat) as Hid. fold id0 in Hid.
    destruct sh as [uids var del lock creates log]; destruct th as [pc w cur rest].
    unfold c_shared_ok, c_pc_ok, c_fresh, c_published, c_initd; simpl.
    intros (Hu & Hv) (Hlk & Hpc) Hrest.
    destruct pc; simpl in *; auto; try (destruct lock; [exact I|]); simpl; intros Hdel.
    - (* Started *)
      destruct (Z.eqb_spec (uids w) 0) as [E|E]; simpl.
      + repeat split; auto; discriminate.
      + destruct (Hu w) as [?|(?&?)]; [congruence|]. repeat split; auto; discriminate.
    - (* VarGet1: a value found in the variable is the published id *)
      destruct var as [v|]; simpl; [|repeat split; auto; discriminate].
      destruct Hv as [(?&_)|[(?&_)|(Ev&?)]]; try discriminate. injection Ev as ->.
      repeat split; auto; discriminate.
    - (* SetUid1 *)
      destruct Hpc as (-> & ->).
      repeat split; auto using set_uid_ok, set_uid_same; try discriminate.
      destruct Hv as [(_&?&_)|?]; [discriminate|auto].
    - (* Acquire: the lock is free, so no create is waiting to be published *)
      destruct Hv as [?|[(_&_&?)|?]]; [|congruence|]; repeat split; auto.
    - (* VarGet2 *)
      destruct var as [v|]; simpl.
      + destruct Hpc as [(?&_)|(Ev&?)]; [discriminate|]. injection Ev as ->. repeat split; auto.
      + destruct Hpc as [(_&?&?)|(?&_)]; [|discriminate]. repeat split; auto.
    - (* SetUid2 *)
      destruct Hpc as (-> & -> & ->).
      repeat split; auto using set_uid_ok, set_uid_same.
    - (* AssertInit *)
      destruct Hpc as (? & ? & H0). rewrite (H0 w). simpl. repeat split; auto.
    - (* Create *)
      destruct Hpc as (-> & -> & H0).
      repeat split; auto.
      right; left. repeat split. rewrite Hlk by reflexivity. discriminate.
    - (* Store *)
      destruct Hpc as (-> & -> & ->).
      repeat split; auto using set_uid_ok, set_uid_same.
      right; left. repeat split. rewrite Hlk by reflexivity. discriminate.
    - (* ReadForVar *)
      destruct Hpc as (-> & E & ->). rewrite E. repeat split; auto.
    - (* VarSet *)
      destruct Hpc as (-> & E & ->). repeat split; auto.
    - (* Release *)
      destruct Hpc as (Hk & (-> & ->) & E).
      destruct Hk as [->| ->]; simpl; repeat split; auto; discriminate.
    - (* PostAssert *)
      destruct Hpc as (E & ->). rewrite E.
      destruct (Z.eqb_spec id0 0); [congruence|]. simpl. repeat split; auto; discriminate.
    - (* BodyAssert *)
      destruct Hpc as (E & ->). rewrite E.
      destruct (Z.eqb_spec id0 0); [congruence|]. simpl. repeat split; auto; discriminate.
    - (* BodyRead *)
      destruct Hpc as (E & ->). rewrite E. repeat split; auto; discriminate.
    - (* BodyCall *)
      split; [auto|]. destruct cur; simpl.
      + rewrite c_load_wk.
        exact (c_load_ok w rest (mkCS uids var del lock creates (KUpload part id :: log)) t w Hrest).
      + repeat split; auto; discriminate.
    - (* Delete *)
      discriminate.
  Qed.

  (** only [CpCreate] and the body calls write the log *)
  Lemma c_step1_log sh t th :
    log_ok id0 (c_log sh) (c_creates sh) -> c_pc_ok sh t (c_wk th) (c_pc th) ->
    match c_step1 new_id t sh th with
    | Some (_, sh', _) => log_ok id0 (c_log sh') (c_creates sh')
    | None => True
    end.
  Proof.
    destruct sh as [uids var del lock creates log]; destruct th as [pc w cur rest].
    unfold c_pc_ok, c_fresh, c_initd; simpl. intros Hlog (_ & Hpc).
    destruct pc; simpl; auto.
    - destruct lock; auto.
    - destruct Hpc as (_ & -> & _). apply log_ok_create, Hlog.
    - destruct Hpc as (-> & _ & ->). apply log_ok_body, Hlog.
  Qed.

  (** what a view outside the critical section may speak of never becomes false again *)
  Lemma c_step1_stable sh t th :
    c_pc_ok sh t (c_wk th) (c_pc th) ->
    match c_step1 new_id t sh th with
    | Some (_, sh', _) =>
        (c_creates sh = 1%nat -> c_creates sh' = 1%nat) /\
        (forall w, c_uids sh w = id0 -> c_uids sh' w = id0)
    | None => True
    end.
  Proof.
    destruct sh as [uids var del lock creates log]; destruct th as [pc w cur rest].
    unfold c_pc_ok, c_fresh; simpl. intros (_ & Hpc).
    destruct pc; simpl; auto.
    - destruct Hpc as (-> & _). auto using set_uid_keep.
    - destruct lock; auto.
    - destruct Hpc as (-> & _). auto using set_uid_keep.
    - destruct Hpc as (_ & -> & _). split; [discriminate|auto].
    - destruct Hpc as (-> & _). auto using set_uid_keep.
  Qed.

  Lemma c_pc_ok_unlocked sh sh' t w pc :
    c_locked pc = false -> (c_creates sh = 1%nat -> c_creates sh' = 1%nat) ->
    (c_uids sh w = id0 -> c_uids sh' w = id0) -> c_pc_ok sh t w pc -> c_pc_ok sh' t w pc.
  Proof.
    intros L Hc Hu (_ & Hpc). split; [rewrite L; discriminate|].
    unfold c_initd in *. destruct pc; try discriminate L; tauto.
  Qed.

  (** a worker that takes the id from the variable ([CpSetUid1]) disturbs no view *)
  Lemma c_pc_ok_set_uid uids var del lock log w t' w' pc' :
    c_pc_ok (mkCS uids var del lock 1 log) t' w' pc' ->
    c_pc_ok (mkCS (set_uid uids w id0) var del lock 1 log) t' w' pc'.
  Proof.
    unfold c_pc_ok, c_fresh, c_published, c_initd; simpl. intros (Hl & H). split; [exact Hl|].
    destruct pc'; auto; intuition (try discriminate; auto using set_uid_keep).
  Qed.

  Lemma c_step1_unlocked sh t th t' w' pc' :
    c_locked (c_pc th) = false -> c_lock sh <> None ->
    c_pc_ok sh t (c_wk th) (c_pc th) -> c_pc_ok sh t' w' pc' ->
    match c_step1 new_id t sh th with
    | Some (_, sh', _) => c_deleted sh' = false -> c_pc_ok sh' t' w' pc'
    | None => True
    end.
  Proof.
    destruct sh as [uids var del lock creates log]; destruct th as [pc w cur rest]; simpl.
    intros L Hlock Hpc H. destruct pc; try discriminate L; simpl; auto.
    - destruct Hpc as (_ & -> & Hc). simpl in Hc. subst creates. intros _. apply c_pc_ok_set_uid, H.
    - destruct lock; [exact I|congruence].
    - discriminate.
  Qed.

  (** every other thread's view stays valid, as in the local system *)
  Lemma c_step1_others sh t th t' w' pc' :
    c_pc_ok sh t (c_wk th) (c_pc th) -> t' <> t -> c_pc_ok sh t' w' pc' ->
    match c_step1 new_id t sh th with
    | Some (_, sh', _) => c_deleted sh' = false -> c_pc_ok sh' t' w' pc'
    | None => True
    end.
  Proof.
    intros Hpc Hne Hpc'. destruct (c_locked pc') eqn:L.
    - (* [t'] holds the lock, so [t] does not *)
      assert (El : c_lock sh = Some t') by (apply Hpc', L).
      apply c_step1_unlocked; [|congruence|exact Hpc|exact Hpc'].
      destruct (c_locked (c_pc th)) eqn:Lt; [|reflexivity].
      apply Hpc in Lt. congruence.
    - pose proof (c_step1_stable sh t th Hpc) as Hst.
      destruct (c_step1 new_id t sh th) as [[[lb sh'] th']|]; [|exact I].
      intros _. apply (c_pc_ok_unlocked sh); try assumption; apply Hst.
  Qed.

  Lemma c_step1_locked sh t th :
    match c_step1 new_id t sh th with
    | Some (_, sh', th') =>
        (c_lock sh' = c_lock sh /\ (c_locked (c_pc th) = true -> c_locked (c_pc th') = true)) \/
        (c_lock sh' = Some t /\ c_locked (c_pc th') = true) \/
        c_lock sh' = None
    | None => True
    end.
  Proof.
    destruct sh as [uids var del lock creates log]; destruct th as [pc w cur rest]; simpl.
    destruct pc; simpl; auto;
      try (destruct lock; [exact I|]); simpl; auto;
      try (left; split; [reflexivity|]; try discriminate;
           try destruct (uids w =? 0); try destruct var; auto).
  Qed.

  Lemma c_step1_count k sh t th :
    match c_step1 new_id t sh th with
    | Some (_, sh', th') =>
        (c_pending k th' + count_calls k (c_log sh'))%nat
        = (c_pending k th + count_calls k (c_log sh))%nat
    | None => True
    end.
  Proof.
    destruct sh as [uids var del lock creates log]; destruct th as [pc w cur rest]; simpl.
    destruct pc; simpl; auto.
    - destruct (uids w =? 0); reflexivity.
    - destruct var; reflexivity.
    - destruct lock; reflexivity.
    - destruct var; reflexivity.
    - destruct (uids w =? 0); reflexivity.
    - destruct k0; reflexivity.
    - destruct (uids w =? 0); reflexivity.
    - destruct (uids w =? 0); reflexivity.
    - rewrite count_calls_body. destruct cur; [rewrite c_pending_load|]; unfold c_pending; simpl; lia.
    - apply f_equal2; [apply c_pending_load|reflexivity].
  Qed.

  Lemma c_step_inv progs s t lb s' :
    c_inv progs s -> c_step new_id s t = Some (lb, s') -> c_deleted (fst s') = false ->
    c_inv progs s'.
  Proof.
    intros [Hsh Hlog Hth Hlock Hcnt] Hstep Hdel.
    destruct s as [sh ths]. unfold c_step in Hstep; simpl in *.
    destruct (nth_error ths t) as [th|] eqn:Et; [|discriminate].
    destruct (Hth _ _ Et) as (Hpc & Hrest).
    pose proof (c_step1_own _ t _ Hsh Hpc Hrest) as Hown.
    pose proof (c_step1_log _ t _ Hlog Hpc) as Hlog'.
    pose proof (fun t' w' pc' => c_step1_others _ _ _ t' w' pc' Hpc) as Hoth.
    pose proof (c_step1_locked sh t th) as Hl.
    pose proof (fun k => c_step1_count k sh t th) as Hc.
    destruct (c_step1 new_id t sh th) as [[[lb0 sh0] th0]|]; [|discriminate].
    injection Hstep as <- <-. destruct (Hown Hdel) as (Hsh' & Hpc' & Hrest').
    constructor; simpl; auto.
    - intros t' th' H. apply nth_error_upd_inv in H. destruct H as [(-> & ->)|(Hne & H)]; auto.
      destruct (Hth _ _ H) as (Hp & Hr). auto.
    - eapply holder_upd; eauto.
    - intros k. specialize (Hcnt k). specialize (Hc k).
      pose proof (sumf_upd (c_pending k) ths t th0 th Et). lia.
  Qed.

  (** only [CpDelete] sets [c_deleted], and nothing clears it *)
  Lemma c_step_deleted s t lb s' :
    c_step new_id s t = Some (lb, s') -> c_deleted (fst s') = false -> c_deleted (fst s) = false.
  Proof.
    destruct s as [sh ths]. unfold c_step; simpl.
    destruct (nth_error ths t) as [th|]; [|discriminate].
    assert (H : match c_step1 new_id t sh th with
                | Some (_, sh', _) => c_deleted sh' = false -> c_deleted sh = false
                | None => True
                end).
    { destruct sh as [uids var del lock creates log]; destruct th as [pc w cur rest]; simpl.
      destruct pc; simpl; auto; [destruct lock; auto|discriminate]. }
    destruct (c_step1 new_id t sh th) as [[[lb0 sh0] th0]|]; [|discriminate].
    intros [= _ <-]. exact H.
  Qed.

  Lemma c_reach_inv progs s :
    cprogs_ok progs -> c_reach new_id progs s -> c_deleted (fst s) = false -> c_inv progs s.
  Proof.
    intros Hp H; induction H; intros Hdel.
    - apply c_inv_init; auto.
    - eapply c_step_inv; eauto. apply IHc_reach. eapply c_step_deleted; eauto.
  Qed.

  Lemma c_run_reach progs s sched lbs s' :
    c_reach new_id progs s -> c_run new_id s sched = Some (lbs, s') -> c_reach new_id progs s'.
  Proof.
    revert s lbs; induction sched as [|t r IH]; simpl; intros s lbs Hr H.
    - inversion H; subst; auto.
    - destruct (c_step new_id s t) as [[lb s1]|] eqn:E; [|discriminate].
      destruct (c_run new_id s1 r) as [[lbs1 s2]|] eqn:E2; [|discriminate].
      inversion H; subst. eapply IH; [|eauto]. econstructor; eauto.
  Qed.

  Lemma c_creates_le_1 progs s : c_inv progs s -> (c_creates (fst s) <= 1)%nat.
  Proof. intros [(_ & H) _ _ _ _]. destruct H as [(_&->&_)|[(_&->&_)|(_&->)]]; lia. Qed.

  Lemma c_no_error progs s t th :
    c_inv progs s -> nth_error (snd s) t = Some th -> c_failed th = false.
  Proof.
    intros [_ _ H _ _] Ht. destruct (H _ _ Ht) as ((_ & Hp) & _).
    unfold c_failed. destruct (c_pc th); auto. contradiction.
  Qed.

  Lemma c_calls_ok progs s :
    c_inv progs s ->
    count_creates (c_log (fst s)) = c_creates (fst s) /\
    forall c, In c (c_log (fst s)) ->
      call_id c = id0 /\ In (KCreate id0) (c_log (fst s)).
  Proof.
    intros Hi. split; [apply Hi|].
    eapply log_ok_calls; [apply Hi|eapply c_creates_le_1, Hi].
  Qed.

  Lemma c_worker_ids progs s w :
    c_inv progs s -> c_uids (fst s) w = 0 \/ c_uids (fst s) w = id0.
  Proof. intros [(H & _) _ _ _ _]. destruct (H w) as [?|(?&_)]; auto. Qed.

  Lemma c_all_done_counts progs s :
    c_inv progs s -> c_all_done s ->
    forall k, count_calls k (c_log (fst s)) = count_ops k (concat (map snd progs)).
  Proof.
    intros Hi Hd k. rewrite <- (ci_count _ _ Hi k), sumf_zero; auto.
    intros th Hin. unfold c_pending. rewrite (Hd _ Hin). reflexivity.
  Qed.

  Lemma c_all_done_one_create progs s :
    c_inv progs s -> c_all_done s -> concat (map snd progs) <> [] -> c_creates (fst s) = 1%nat.
  Proof.
    intros Hi Hd. eapply log_ok_done; [apply Hi|eapply c_creates_le_1, Hi|].
    apply c_all_done_counts; assumption.
  Qed.

  Lemma c_step_enabled s t th :
    nth_error (snd s) t = Some th ->
    c_locked (c_pc th) = true \/ (c_finished th = false /\ c_lock (fst s) = None) ->
    exists lb s', c_step new_id s t = Some (lb, s').
  Proof.
    intros Ht Hen. unfold c_step. rewrite Ht.
    assert (E : c_step1 new_id t (fst s) th <> None).
    { destruct (fst s) as [uids var del lock creates log]; destruct th as [pc w cur rest].
      unfold c_finished in Hen; simpl in Hen.
      destruct Hen as [L|(Hf & ->)]; destruct pc; try discriminate; simpl; discriminate. }
    destruct (c_step1 new_id t (fst s) th) as [[[lb sh'] th']|]; [eauto|congruence].
  Qed.

  Lemma c_progress progs s t th :
    c_inv progs s -> nth_error (snd s) t = Some th -> c_finished th = false ->
    exists t' lb s', c_step new_id s t' = Some (lb, s').
  Proof.
    intros Hi Ht Hf. destruct (c_lock (fst s)) as [h|] eqn:El.
    - destruct (ci_lock _ _ Hi h El) as (thh & Hh & Hlk).
      exists h. apply (c_step_enabled s h thh Hh). left; exact Hlk.
    - exists t. apply (c_step_enabled s t th Ht). right; split; assumption.
  Qed.
End ClusterProofs.

(** Programs and schedules of the examples and refutations of Props/C18.v.
    The code before a4a8a1e (no re-check under the lock): two first writes, both
    read [started = False], the first initiates and releases, the second takes
    the lock and runs into [assert self.uploadId == ""]. *)
Definition race_progs : list (list op) := [[OWrite 1]; [OWrite 2]].
Definition race_sched : list nat := [0; 1; 0; 0; 0; 0; 0; 0; 1; 1; 1; 1]%nat.

(** the same two threads on the current code, same kind of interleaving *)
Definition race_sched_fixed : list nat :=
  [0; 1; 0; 0; 0; 0; 0; 0; 0; 1; 1; 1; 1; 0; 0; 0; 1; 1; 1]%nat.

(** first use of the process-local lock in this process ([_state] empty): both threads find the
    registry empty and create a lock each; the atomic [setdefault] makes them agree on one *)
Definition race_sched_fresh : list nat :=
  [0; 1; 0; 1; 0; 1; 0; 1; 0; 0; 0; 0; 0; 0; 1; 1; 1; 0; 0; 0; 1; 1; 1]%nat.

(** cluster path: a finalise that completed (and deleted the shared variable)
    before another worker's first write lets that worker initiate again -- the
    statements are therefore about executions in which the variable still exists
    (in a dask graph finalise depends on every write) *)
Definition late_progs : list (nat * list op) := [(0%nat, [OFinal 1]); (1%nat, [OWrite 1])].
Definition late_sched : list nat := (repeat 0 15 ++ repeat 1 6)%nat.

Definition c_example_progs : list (nat * list op) :=
  [(0%nat, [OWrite 1]); (1%nat, [OWrite 2]); (0%nat, [OWrite 3])].
Definition c_example_sched : list nat :=
  [0; 1; 2; 1; 0; 2; 1; 1; 1; 1; 1; 1; 1; 1; 0; 0; 0; 0; 2; 2; 2; 2; 1; 1; 1; 1; 0; 0; 0; 2; 2; 2]%nat.
