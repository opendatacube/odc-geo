(** Lemmas about the COG layout model (Model/CogLayout.v): block sizes, the overview count
    (characterised by [halvings]: the least number of halvings that bring a dimension within
    the block size), padding, the level sequence of _make_empty_cog, blocks per axis. *)
From Coq Require Import ZArith List Bool Lia.
From OG Require Import Base.Result Model.Roi Proofs.RoiProofs Model.CogLayout.
Import ListNotations.
Open Scope Z_scope.

Lemma align_up_16 x : 1 <= x -> 0 < align_up x 16 /\ align_up x 16 mod 16 = 0.
Proof. intros Hx. destruct (align_up_spec x 16 ltac:(lia)) as (Hm & Hl & _). lia. Qed.

Lemma adjust_blocksize_spec block dim :
  1 <= block ->
  0 < adjust_blocksize block dim /\ adjust_blocksize block dim mod 16 = 0.
Proof.
  intros Hb; unfold adjust_blocksize.
  destruct ((0 <? dim) && (dim <? block)) eqn:E; apply align_up_16; [|exact Hb].
  apply andb_true_iff in E as [E _]. apply Z.ltb_lt in E. lia.
Qed.

Lemma adjust_blocksize_value block dim :
  adjust_blocksize block dim =
    if (0 <? dim) && (dim <? block) then align_up dim 16 else align_up block 16.
Proof. reflexivity. Qed.

Lemma adjust_blocksize_covers block dim :
  1 <= block -> 1 <= dim ->
  Z.min dim block <= adjust_blocksize block dim <= align_up block 16.
Proof.
  intros Hb Hd; unfold adjust_blocksize.
  destruct (align_up_spec dim 16 ltac:(lia)) as (Hm1 & Hl1 & Hu1).
  destruct (align_up_spec block 16 ltac:(lia)) as (Hm2 & Hl2 & Hu2).
  destruct ((0 <? dim) && (dim <? block)) eqn:E; [|lia].
  apply andb_true_iff in E as [_ E]. apply Z.ltb_lt in E.
  (* align_up dim 16 <= align_up block 16 : both multiples of 16 *)
  apply Z.mod_divide in Hm1; [|lia]. apply Z.mod_divide in Hm2; [|lia].
  destruct Hm1 as [u Hu], Hm2 as [v Hv]. lia.
Qed.

Lemma adjust_blocksize_fix a : 0 < a -> a mod 16 = 0 -> adjust_blocksize a 0 = a.
Proof.
  intros Ha Hm. unfold adjust_blocksize. change (0 <? 0) with false. cbn [andb].
  destruct (align_up_spec a 16 ltac:(lia)) as (Hm' & Hl & Hu).
  apply Z.mod_divide in Hm; [|lia]. apply Z.mod_divide in Hm'; [|lia].
  destruct Hm as [u Hu1], Hm' as [v Hv]. lia.
Qed.

Definition blk_pos (b : blk) : Prop :=
  match b with BInt b => 1 <= b | BPair b1 b2 => 1 <= b1 /\ 1 <= b2 end.

Definition tile_ok (t : Z * Z) : Prop :=
  0 < fst t /\ fst t mod 16 = 0 /\ 0 < snd t /\ snd t mod 16 = 0.

Lemma norm_blocksize_spec b : blk_pos b -> tile_ok (norm_blocksize b).
Proof.
  destruct b as [b | b1 b2]; simpl; unfold tile_ok; cbn [fst snd].
  - intros H. destruct (adjust_blocksize_spec b 0 H). tauto.
  - intros [H1 H2]. destruct (adjust_blocksize_spec b1 0 H1), (adjust_blocksize_spec b2 0 H2). tauto.
Qed.

Lemma pos_half p : Zpos p / 2 = match p with xH => 0 | xO q | xI q => Zpos q end.
Proof. rewrite <- Z.div2_div. destruct p; reflexivity. Qed.

Lemma div_pow_succ d k : 0 <= k -> d / 2 ^ (1 + k) = d / 2 / 2 ^ k.
Proof.
  intros Hk. rewrite Z.pow_add_r by lia. rewrite Z.pow_1_r.
  assert (0 < 2 ^ k) by (apply Z.pow_pos_nonneg; lia).
  rewrite Z.div_div by lia. reflexivity.
Qed.

(** what the loop of [num_overviews] counts: [c] is the least number of
    halvings with [d // 2^c <= block] *)
Definition halvings (block d c : Z) : Prop :=
  0 <= c /\ d / 2 ^ c <= block /\ (forall k, 0 <= k < c -> block < d / 2 ^ k).

Lemma halvings_0 block d : d <= block -> halvings block d 0.
Proof.
  intros H. split; [lia|]. split; [rewrite Z.pow_0_r, Z.div_1_r; exact H | intros; lia].
Qed.

Lemma halvings_step block d c : block < d -> halvings block (d / 2) c -> halvings block d (1 + c).
Proof.
  intros Hd (H0 & H1 & H2). split; [lia|]. split.
  - rewrite div_pow_succ by lia. exact H1.
  - intros k Hk. destruct (Z.eq_dec k 0) as [->|Hne].
    + rewrite Z.pow_0_r, Z.div_1_r. exact Hd.
    + replace k with (1 + (k - 1)) by lia. rewrite div_pow_succ by lia. apply H2. lia.
Qed.

Lemma novr_pos_eq block p :
  novr_pos block p =
    if block <? Zpos p then
      1 + match p with xH => 0 | xO q => novr_pos block q | xI q => novr_pos block q end
    else 0.
Proof. destruct p; reflexivity. Qed.

Lemma halvings_if block d c :
  (block < d -> halvings block (d / 2) c) -> halvings block d (if block <? d then 1 + c else 0).
Proof.
  intros H. destruct (Z.ltb_spec block d); [apply halvings_step; auto | apply halvings_0; assumption].
Qed.

Lemma novr_pos_spec block p : 0 <= block -> halvings block (Zpos p) (novr_pos block p).
Proof.
  intros Hb. induction p as [q IH | q IH |]; rewrite novr_pos_eq; apply halvings_if; intros _; rewrite pos_half.
  - exact IH.
  - exact IH.
  - apply halvings_0, Hb.
Qed.

Lemma num_overviews_spec block dim :
  0 <= block -> 1 <= dim ->
  exists c, num_overviews block dim = Ok c /\ halvings block dim c.
Proof.
  intros Hb Hd. destruct dim as [|p|p]; try lia.
  unfold num_overviews. destruct (Z.ltb_spec block 0); [lia|].
  exists (novr_pos block p). split; [reflexivity | apply novr_pos_spec, Hb].
Qed.

Lemma halvings_unique block d c c' : halvings block d c -> halvings block d c' -> c = c'.
Proof.
  intros (H0 & H1 & H2) (H0' & H1' & H2').
  destruct (Z.lt_trichotomy c c') as [Hlt | [Heq | Hgt]]; auto.
  - specialize (H2' c ltac:(lia)). lia.
  - specialize (H2 c' ltac:(lia)). lia.
Qed.

Lemma num_overviews_unique block dim c c' :
  0 <= c -> 0 <= c' ->
  dim / 2 ^ c <= block -> (forall k, 0 <= k < c -> block < dim / 2 ^ k) ->
  dim / 2 ^ c' <= block -> (forall k, 0 <= k < c' -> block < dim / 2 ^ k) ->
  c = c'.
Proof. intros H0 H0' H1 H2 H1' H2'. apply (halvings_unique block dim); repeat split; assumption. Qed.

Lemma compute_cog_spec_none H W th tw :
  1 <= H -> 1 <= W -> 1 <= th -> 1 <= tw ->
  exists nh nw,
    num_overviews (adjust_blocksize th 0) H = Ok nh /\
    num_overviews (adjust_blocksize tw 0) W = Ok nw /\
    0 <= nh /\ 0 <= nw /\
    compute_cog_spec (H, W) (th, tw) None =
      Ok ((align_up H (2 ^ Z.max nw nh), align_up W (2 ^ Z.max nw nh)),
          (adjust_blocksize th 0, adjust_blocksize tw 0), Z.max nw nh).
Proof.
  intros HH HW Hth Htw.
  destruct (adjust_blocksize_spec th 0 Hth) as (Pth & _).
  destruct (adjust_blocksize_spec tw 0 Htw) as (Ptw & _).
  destruct (num_overviews_spec (adjust_blocksize th 0) H ltac:(lia) HH) as (nh & Enh & Hnh & _).
  destruct (num_overviews_spec (adjust_blocksize tw 0) W ltac:(lia) HW) as (nw & Enw & Hnw & _).
  exists nh, nw. repeat split; auto.
  unfold compute_cog_spec. rewrite Enw, Enh. cbn [bind].
  assert (0 < 2 ^ Z.max nw nh) by (apply Z.pow_pos_nonneg; lia).
  destruct (Z.ltb_spec 0 (2 ^ Z.max nw nh)); [reflexivity | lia].
Qed.

Lemma padding_spec d n :
  0 <= n ->
  let d' := align_up d (2 ^ n) in
  d <= d' /\ d' - d < 2 ^ n /\ d' mod 2 ^ n = 0.
Proof.
  intros Hn. assert (0 < 2 ^ n) by (apply Z.pow_pos_nonneg; lia).
  destruct (align_up_spec d (2 ^ n) H) as (A & B & C). cbn zeta. lia.
Qed.

Lemma div_pow2_exact d n j :
  0 <= j <= n -> d mod 2 ^ n = 0 -> d / 2 ^ j * 2 ^ j = d.
Proof.
  intros Hj Hm.
  assert (0 < 2 ^ n) by (apply Z.pow_pos_nonneg; lia).
  assert (0 < 2 ^ j) by (apply Z.pow_pos_nonneg; lia).
  apply Z.mod_divide in Hm; [|lia]. destruct Hm as [q Hq].
  replace n with (j + (n - j)) in Hq by lia. rewrite Z.pow_add_r in Hq by lia.
  subst d. replace (q * (2 ^ j * 2 ^ (n - j))) with (q * 2 ^ (n - j) * 2 ^ j) by ring.
  rewrite Z.div_mul by lia. reflexivity.
Qed.

Lemma halving_exact d n j :
  0 <= j < n -> d mod 2 ^ n = 0 -> d / 2 ^ (j + 1) * 2 = d / 2 ^ j.
Proof.
  intros Hj Hm.
  pose proof (div_pow2_exact d n j ltac:(lia) Hm) as E1.
  pose proof (div_pow2_exact d n (j + 1) ltac:(lia) Hm) as E2.
  rewrite Z.pow_add_r in * by lia. rewrite Z.pow_1_r in *.
  assert (0 < 2 ^ j) by (apply Z.pow_pos_nonneg; lia).
  apply Z.mul_reg_r with (2 ^ j); [lia|]. rewrite E1. rewrite <- E2 at 2. ring.
Qed.

Lemma padded_level d n k :
  1 <= d -> 0 <= k <= n ->
  align_up d (2 ^ n) / 2 ^ k * 2 ^ k = align_up d (2 ^ n) /\ 1 <= align_up d (2 ^ n) / 2 ^ k.
Proof.
  intros Hd Hk. destruct (padding_spec d n ltac:(lia)) as (Hle & _ & Hm).
  pose proof (div_pow2_exact _ n k Hk Hm) as E. split; [exact E|].
  assert (P : 0 < 2 ^ k) by (apply Z.pow_pos_nonneg; lia).
  assert (0 < align_up d (2 ^ n) / 2 ^ k) by (apply (Z.mul_pos_cancel_r _ _ P); lia). lia.
Qed.

Lemma length_gen_levels k cnt bs s : length (gen_levels k cnt bs s) = cnt.
Proof. revert k s; induction cnt; intros; simpl; auto. Qed.

Lemma nth_gen_levels cnt : forall k bs s j, (j < cnt)%nat ->
  nth_error (gen_levels k cnt bs s) j =
    Some (Level (fst s / 2 ^ Z.of_nat j, snd s / 2 ^ Z.of_nat j)
                (norm_blocksize (nth_block bs (k + j)))).
Proof.
  induction cnt as [|c IH]; intros k bs s j Hj; [lia|].
  destruct j as [|j]; cbn [gen_levels nth_error].
  - rewrite Nat.add_0_r, !Z.div_1_r. destruct s; reflexivity.
  - rewrite IH by lia. replace (Z.of_nat (S j)) with (1 + Z.of_nat j) by lia.
    rewrite !div_pow_succ, Nat.add_succ_comm by lia. reflexivity.
Qed.

Lemma last_nonempty {A} (l : list A) d d' : l <> [] -> last l d = last l d'.
Proof.
  induction l as [|a l IH]; [congruence|]. intros _. destruct l as [|b l]; [reflexivity|].
  change (last (a :: b :: l) d) with (last (b :: l) d).
  change (last (a :: b :: l) d') with (last (b :: l) d'). apply IH. discriminate.
Qed.

Lemma last_In {A} (l : list A) d : l <> [] -> In (last l d) l.
Proof.
  intros Hne. rewrite (app_removelast_last d Hne) at 2. apply in_or_app. right. left. reflexivity.
Qed.

Lemma nth_block_In bs k : bs <> [] -> In (nth_block bs k) bs.
Proof.
  intros Hne. unfold nth_block.
  destruct (nth_in_or_default k bs (last bs (BInt 0))) as [Hin | ->]; [exact Hin | apply last_In, Hne].
Qed.

Lemma make_levels_eq bs im :
  bs <> [] ->
  make_levels bs im =
    ('(shape', _, n) <- compute_cog_spec im (norm_blocksize (last bs (BInt 0))) None ;;
     Ok (gen_levels 0 (S (Z.to_nat n)) bs shape', n)).
Proof. destruct bs; [congruence | reflexivity]. Qed.

(** the layout of _make_empty_cog: [n] is the larger overview count of the two
    axes under the last block size, level 0 is the image padded to a multiple
    of 2^n *)
Lemma make_levels_ok bs H W :
  bs <> [] -> Forall blk_pos bs -> 1 <= H -> 1 <= W ->
  exists nh nw,
    num_overviews (fst (norm_blocksize (last bs (BInt 0)))) H = Ok nh /\
    num_overviews (snd (norm_blocksize (last bs (BInt 0)))) W = Ok nw /\
    0 <= Z.max nh nw /\
    make_levels bs (H, W) =
      Ok (gen_levels 0 (S (Z.to_nat (Z.max nh nw))) bs
            (align_up H (2 ^ Z.max nh nw), align_up W (2 ^ Z.max nh nw)), Z.max nh nw).
Proof.
  intros Hne Hall HH HW. rewrite Forall_forall in Hall.
  destruct (norm_blocksize_spec _ (Hall _ (last_In bs (BInt 0) Hne))) as (T1 & T2 & T3 & T4).
  rewrite make_levels_eq by exact Hne.
  destruct (norm_blocksize (last bs (BInt 0))) as [th tw]. cbn [fst snd] in *.
  destruct (compute_cog_spec_none H W th tw HH HW ltac:(lia) ltac:(lia))
    as (nh & nw & Enh & Enw & Hnh & Hnw & E).
  rewrite adjust_blocksize_fix in Enh, Enw, E by assumption.
  exists nh, nw. rewrite E, (Z.max_comm nw nh). cbn [bind]. repeat split; auto. lia.
Qed.

Lemma make_levels_inv bs H W lv n :
  bs <> [] -> Forall blk_pos bs -> 1 <= H -> 1 <= W ->
  make_levels bs (H, W) = Ok (lv, n) ->
  0 <= n /\ lv = gen_levels 0 (S (Z.to_nat n)) bs (align_up H (2 ^ n), align_up W (2 ^ n)).
Proof.
  intros Hne Hall HH HW E.
  destruct (make_levels_ok bs H W Hne Hall HH HW) as (nh & nw & _ & _ & Hn & E').
  split; congruence.
Qed.

Lemma make_levels_wf bs H W lv n :
  bs <> [] -> Forall blk_pos bs -> 1 <= H -> 1 <= W ->
  make_levels bs (H, W) = Ok (lv, n) ->
  Forall (fun l => 1 <= fst (l_shape l) /\ 1 <= snd (l_shape l) /\ tile_ok (l_tile l)) lv.
Proof.
  intros Hne Hall HH HW E.
  destruct (make_levels_inv bs H W lv n Hne Hall HH HW E) as (Hn & ->).
  apply Forall_forall. intros l Hin. apply In_nth_error in Hin as (j & Hj).
  assert (Hlt : (j < S (Z.to_nat n))%nat).
  { erewrite <- length_gen_levels. apply nth_error_Some. rewrite Hj. discriminate. }
  rewrite nth_gen_levels in Hj by exact Hlt. injection Hj as <-. cbn [l_shape l_tile fst snd].
  split; [apply padded_level; lia|]. split; [apply padded_level; lia|].
  rewrite Forall_forall in Hall. apply norm_blocksize_spec, Hall, nth_block_In, Hne.
Qed.

Lemma nblocks_covers N n : 0 < n -> (nblocks N n - 1) * n < N <= nblocks N n * n.
Proof.
  intros Hn. unfold nblocks. pose proof (Z.div_mod (N + n - 1) n ltac:(lia)).
  pose proof (Z.mod_pos_bound (N + n - 1) n Hn). lia.
Qed.

Lemma nblocks_nonneg N n : 0 <= N -> 0 < n -> 0 <= nblocks N n.
Proof. intros. apply Z.div_pos; lia. Qed.

Lemma nblocks_pos N n : 1 <= N -> 0 < n -> 1 <= nblocks N n.
Proof. intros. apply Z.div_le_lower_bound; lia. Qed.
