(** C10: the image pasted along unit-scale slices ([axis_unit_facts]) is, pixel by pixel, the
    nearest-neighbour warp image for any source location within half a pixel of the snapped one. *)
From Coq Require Import ZArith QArith Qround Qabs Bool.
From OG Require Import Base.QZ Model.Overlap Model.Paste Proofs.OverlapProofs.
Open Scope Q_scope.

Lemma in_slb_spec sl i : in_slb sl i = true <-> in_sl sl i.
Proof.
  unfold in_slb, in_sl. rewrite andb_true_iff, Z.leb_le, Z.ltb_lt. tauto.
Qed.

Lemma inside_b (n v : Z) : ((0 <=? v) && (v <? n))%Z = true <-> (0 <= v < n)%Z.
Proof. exact (in_slb_spec (0, n)%Z v). Qed.

Lemma axis_paste_nn Ns Nd T flip src dst d (x : Q) :
  axis_unit_facts Ns Nd T flip src dst -> (0 <= d < Nd)%Z ->
  Qabs (x - (inject_Z (nn_unit T flip d) + (1#2))) < 1#2 ->
  in_slb dst d = ((0 <=? Qfloor x) && (Qfloor x <? Ns))%Z /\
  (in_slb dst d = true -> paste_index src dst flip d = Qfloor x).
Proof.
  intros (_ & _ & _ & F2 & F3) Hd Hx. rewrite (Qfloor_near_half _ _ Hx). split.
  - apply eq_true_iff_eq. rewrite in_slb_spec, inside_b. apply F2, Hd.
  - intros B. apply F3, in_slb_spec, B.
Qed.

Lemma paste_img_warp (V : Type) (src : img V) (nodata : V) ss ds rs rd fy fx ty tx
      (loc : Z -> Z -> Q * Q) dy dx :
  axis_unit_facts (fst ss) (fst ds) ty fy (fst rs) (fst rd) ->
  axis_unit_facts (snd ss) (snd ds) tx fx (snd rs) (snd rd) ->
  (0 <= dy < fst ds)%Z -> (0 <= dx < snd ds)%Z ->
  Qabs (fst (loc dy dx) - (inject_Z (nn_unit tx fx dx) + (1#2))) < 1#2 ->
  Qabs (snd (loc dy dx) - (inject_Z (nn_unit ty fy dy) + (1#2))) < 1#2 ->
  paste_img src nodata rs rd fy fx dy dx = warp_nn src nodata ss loc dy dx.
Proof.
  intros Fy Fx Hdy Hdx Lx Ly.
  destruct (axis_paste_nn _ _ _ _ _ _ dx _ Fx Hdx Lx) as [Bx Ix].
  destruct (axis_paste_nn _ _ _ _ _ _ dy _ Fy Hdy Ly) as [By Iy].
  unfold paste_img, warp_nn. cbv zeta.
  rewrite <- andb_assoc, <- Bx, <- By, (andb_comm (in_slb (snd rd) dx)).
  destruct (in_slb (fst rd) dy), (in_slb (snd rd) dx); try reflexivity.
  rewrite (Ix eq_refl), (Iy eq_refl). reflexivity.
Qed.
