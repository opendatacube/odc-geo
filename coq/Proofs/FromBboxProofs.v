(** GeoBox.from_bbox / from_geopolygon / zoom_to(resolution=) (property C08).
    Each is snap_grid on the two axes of a box: [axis_spec], what C08 says of one
    axis, follows from the contract [fits] of Proofs/MathHSnap.v, [axis_minimal]
    from its minimality lemmas. *)
From Coq Require Import ZArith QArith Qabs List Lia Lqa.
From OG Require Import Base.Result Base.QZ Model.MathH Model.FromBbox
  Proofs.MathHBasics Proofs.MathHSnap.
From OG Require Base.ListSel.
Import ListNotations.
Open Scope Q_scope.

(** low / high edge of the 1-d grid [tx, nx] with pixel size [rs] of either sign *)
Definition grid_lo (rs tx : Q) (nx : Z) : Q := if Qltb 0 rs then tx else tx + inject_Z nx * rs.
Definition grid_hi (rs tx : Q) (nx : Z) : Q := if Qltb 0 rs then tx + inject_Z nx * rs else tx.

(** everything C08 says about one axis *)
Definition axis_spec (x0 x1 rs : Q) (o : option Q) (tol tx : Q) (nx : Z) : Prop :=
  (1 <= nx)%Z /\
  grid_hi rs tx nx - grid_lo rs tx nx == inject_Z nx * Qabs rs /\
  (* covers [x0, x1] except at most tol pixel per side *)
  grid_lo rs tx nx <= x0 + tol * Qabs rs /\
  x1 - tol * Qabs rs <= grid_hi rs tx nx /\
  (* is less than one pixel (plus tol) larger than necessary on either side *)
  x0 - grid_lo rs tx nx <= Qabs rs /\
  grid_hi rs tx nx - x1 <= (1 + tol) * Qabs rs /\
  (x0 < x1 -> x0 - grid_lo rs tx nx < Qabs rs /\ grid_hi rs tx nx - x1 < (1 + tol) * Qabs rs) /\
  (Qabs rs <= x1 - x0 -> tol < 1 -> grid_hi rs tx nx - x1 < Qabs rs) /\
  (* pixel edges sit at (integer + anchor) pixels from the origin, or exactly at the region's edge *)
  match o with
  | Some o => exists k : Z, tx == (inject_Z k + o) * Qabs rs
  | None => tx == (if Qltb 0 rs then x0 else x1)
  end.

Lemma grid_width rs tx nx : grid_hi rs tx nx - grid_lo rs tx nx == inject_Z nx * Qabs rs.
Proof.
  unfold grid_hi, grid_lo. destruct (Qltb_spec 0 rs); [rewrite Qabs_pos by lra | rewrite Qabs_neg by lra]; ring.
Qed.

Lemma snap_grid_axis x0 x1 rs o tol :
  ~ rs == 0 -> x0 <= x1 -> off_ok o -> 0 <= tol ->
  exists tx nx, snap_grid x0 x1 rs o tol = Ok (tx, nx) /\ axis_spec x0 x1 rs o tol tx nx.
Proof.
  intros Hr Hx Ho Ht. destruct o as [o|].
  - destruct (snap_grid_some_spec x0 x1 rs o tol Hr Hx Ho Ht) as (tx & nx & k & E & A & F).
    exists tx, nx. split; [exact E|]. destruct (fits_snug _ _ _ _ _ _ _ F Hx Ht) as (L1 & L2 & C1 & X1 & X2 & X3).
    refine (conj (proj1 F) (conj (grid_width _ _ _) (conj L1 (conj C1 (conj (Qlt_le_weak _ _ L2)
              (conj X1 (conj (fun S => conj L2 (X2 S)) (conj X3 (ex_intro _ k A))))))))).
  - destruct (snap_grid_none_spec x0 x1 rs tol Hr Hx Ht) as (nx & E & N & S1 & _ & S2 & S3).
    exists (if Qltb 0 rs then x0 else x1), nx. split; [exact E|].
    (* the grid is anchored at [x0] or at [x1]; its other end follows from the width *)
    pose proof (grid_width rs (if Qltb 0 rs then x0 else x1) nx) as W.
    pose proof (Qabs_nonzero rs Hr) as Pa.
    assert (Pt : 0 <= tol * Qabs rs) by (apply Qmult_le_0_compat; lra).
    unfold axis_spec. split; [exact N|]. split; [exact W|].
    unfold grid_hi, grid_lo in *. destruct (Qltb 0 rs); repeat split; lra.
Qed.

Definition snap2_ok (s : option (Q * Q)) : Prop :=
  match s with None => True | Some (sx, sy) => (0 <= sx /\ sx < 1) /\ (0 <= sy /\ sy < 1) end.

Lemma snap2_ok_fst s : snap2_ok s -> off_ok (option_map fst s).
Proof. destruct s as [[sx sy]|]; simpl; tauto. Qed.
Lemma snap2_ok_snd s : snap2_ok s -> off_ok (option_map snd s).
Proof. destruct s as [[sx sy]|]; simpl; tauto. Qed.

Lemma snap_of_table tight anchor :
  (tight = true -> snap_of tight anchor = None) /\
  (tight = false ->
   match anchor with
   | AnDefault | AnEdge => snap_of tight anchor = Some (0, 0)
   | AnCenter => snap_of tight anchor = Some (1#2, 1#2)
   | AnFloating => snap_of tight anchor = None
   | AnXY x y => snap_of tight anchor = Some (x, y)
   | AnNum a => exists sx sy, snap_of tight anchor = Some (sx, sy) /\ sx == a /\ sy == a
   end).
Proof.
  split; intros ->.
  - unfold snap_of. reflexivity.
  - destruct anchor; try reflexivity. unfold snap_of, norm_anchor.
    destruct (Qeq_bool a 0) eqn:E0.
    + apply Qeq_bool_iff in E0. exists 0, 0. repeat split; symmetry; exact E0.
    + destruct (Qeq_bool a (1#2)) eqn:E1.
      * apply Qeq_bool_iff in E1. exists (1#2), (1#2). repeat split; symmetry; exact E1.
      * exists a, a. repeat split; reflexivity.
Qed.

Definition not_scalar (s : shape_in) : Prop := match s with ShScalar _ => False | _ => True end.

Lemma from_bbox_res b tight shape rr anchor tol : not_scalar shape ->
  from_bbox b tight shape (Some rr) anchor tol =
  '(offx, nx) <- snap_grid (bl b) (br b) (fst (res_xy rr)) (option_map fst (snap_of tight anchor)) tol ;;
  '(offy, ny) <- snap_grid (bb b) (bt b) (snd (res_xy rr)) (option_map snd (snap_of tight anchor)) tol ;;
  Ok ((ny, nx), aff_mul (aff_translation offx offy) (aff_scale (fst (res_xy rr)) (snd (res_xy rr)))).
Proof.
  intros H. unfold from_bbox. destruct shape; [|contradiction|]; cbn [bind]; destruct (res_xy rr); reflexivity.
Qed.

Lemma translate_scale ox oy rx ry :
  aff_eq (aff_mul (aff_translation ox oy) (aff_scale rx ry)) (mkAff rx 0 ox 0 ry oy).
Proof. unfold aff_eq, aff_mul, aff_translation, aff_scale; cbn [aa ab ac ad ae af]. repeat split; ring. Qed.

Lemma from_bbox_resolution b tight shape rr anchor tol :
  not_scalar shape ->
  ~ fst (res_xy rr) == 0 -> ~ snd (res_xy rr) == 0 ->
  bl b <= br b -> bb b <= bt b -> 0 <= tol -> snap2_ok (snap_of tight anchor) ->
  exists nx ny offx offy A,
    from_bbox b tight shape (Some rr) anchor tol = Ok ((ny, nx), A) /\
    aff_eq A (mkAff (fst (res_xy rr)) 0 offx 0 (snd (res_xy rr)) offy) /\
    axis_spec (bl b) (br b) (fst (res_xy rr)) (option_map fst (snap_of tight anchor)) tol offx nx /\
    axis_spec (bb b) (bt b) (snd (res_xy rr)) (option_map snd (snap_of tight anchor)) tol offy ny.
Proof.
  intros Hs Hrx Hry Hx Hy Ht Hsn. rewrite (from_bbox_res _ _ _ _ _ _ Hs).
  destruct (snap_grid_axis _ _ _ _ tol Hrx Hx (snap2_ok_fst _ Hsn) Ht) as (offx & nx & -> & Sx).
  destruct (snap_grid_axis _ _ _ _ tol Hry Hy (snap2_ok_snd _ Hsn) Ht) as (offy & ny & -> & Sy).
  exists nx, ny, offx, offy. eexists. split; [reflexivity|].
  split; [apply translate_scale | split; assumption].
Qed.

(** the [minimal] of C08_from_bbox_resolution_minimal *)
Definition axis_minimal (x0 x1 rs : Q) (o : option Q) (tol tx : Q) (n : Z) : Prop :=
  match o with
  | Some _ =>
      x0 + tol * Qabs rs <= grid_lo rs tx n + Qabs rs /\
      ((2 <= n)%Z -> grid_lo rs tx n + inject_Z n * Qabs rs - Qabs rs <= x1 - tol * Qabs rs)
  | None => (2 <= n)%Z -> (inject_Z n - 1) * Qabs rs <= x1 - x0 - tol * Qabs rs
  end.

Lemma snap_grid_axis_minimal x0 x1 rs o tol tx n : ~ rs == 0 -> 0 <= tol -> tol <= 1 # 2 ->
  snap_grid x0 x1 rs o tol = Ok (tx, n) -> axis_minimal x0 x1 rs o tol tx n.
Proof.
  intros Hr Ht Hh H. destruct o as [o|].
  - exact (snap_grid_some_min _ _ _ _ _ _ _ Hr Ht Hh H).
  - exact (snap_grid_none_min _ _ _ _ _ _ Hr Ht Hh H).
Qed.

Lemma axis_minimal_comp x0 x1 rs o tol tx tx' n : tx == tx' ->
  axis_minimal x0 x1 rs o tol tx n -> axis_minimal x0 x1 rs o tol tx' n.
Proof.
  intros E. unfold axis_minimal, grid_lo. destruct o; [|auto].
  destruct (Qltb 0 rs); rewrite E; auto.
Qed.

Lemma from_bbox_resolution_minimal b tight shape rr anchor tol ny nx A :
  not_scalar shape -> ~ fst (res_xy rr) == 0 -> ~ snd (res_xy rr) == 0 -> 0 <= tol -> tol <= 1 # 2 ->
  from_bbox b tight shape (Some rr) anchor tol = Ok ((ny, nx), A) ->
  axis_minimal (bl b) (br b) (fst (res_xy rr)) (option_map fst (snap_of tight anchor)) tol (ac A) nx /\
  axis_minimal (bb b) (bt b) (snd (res_xy rr)) (option_map snd (snap_of tight anchor)) tol (af A) ny.
Proof.
  intros Hs Hrx Hry Ht Hh. rewrite (from_bbox_res _ _ _ _ _ _ Hs).
  destruct (snap_grid (bl b) _ _ _ _) as [[offx nx']|] eqn:Ex; [|discriminate].
  destruct (snap_grid (bb b) _ _ _ _) as [[offy ny']|] eqn:Ey; [|discriminate].
  cbn [bind]. intros H. injection H as <- <- <-.
  destruct (translate_scale offx offy (fst (res_xy rr)) (snd (res_xy rr))) as (_ & _ & Ec & _ & _ & Ef).
  split; eapply axis_minimal_comp; try (symmetry; eassumption); apply snap_grid_axis_minimal; assumption.
Qed.

Lemma shape_affine b ny nx ox oy : (1 <= nx)%Z -> (1 <= ny)%Z ->
  let A := aff_mul (aff_translation ox oy) (aff_scale (span_x b / inject_Z nx) (- span_y b / inject_Z ny)) in
  aa A == span_x b / inject_Z nx /\ ae A == - (span_y b / inject_Z ny) /\ ab A == 0 /\ ad A == 0 /\
  inject_Z nx * aa A == span_x b /\ inject_Z ny * - ae A == span_y b /\ ac A == ox /\ af A == oy.
Proof.
  intros Hnx%inject_Z_ge1 Hny%inject_Z_ge1.
  unfold aff_mul, aff_translation, aff_scale; cbn [aa ab ac ad ae af]. repeat split; field; lra.
Qed.

Lemma pixel_le_span s (n : Z) : 0 < s -> (1 <= n)%Z -> 0 < s / inject_Z n <= s.
Proof.
  intros Hs Hn%inject_Z_ge1. split; [apply Qlt_shift_div_l; lra | apply Qle_shift_div_r; [lra|]].
  pose proof (Qmult_le_0_compat s (inject_Z n - 1)). lra.
Qed.

Lemma from_bbox_shape b tight ny nx anchor tol :
  (1 <= nx)%Z -> (1 <= ny)%Z -> bl b < br b -> bb b < bt b -> 0 <= tol ->
  snap2_ok (snap_of tight anchor) ->
  exists A,
    from_bbox b tight (ShYX ny nx) None anchor tol = Ok ((ny, nx), A) /\
    aa A == span_x b / inject_Z nx /\ ae A == - (span_y b / inject_Z ny) /\ ab A == 0 /\ ad A == 0 /\
    inject_Z nx * aa A == span_x b /\ inject_Z ny * - ae A == span_y b /\
    match snap_of tight anchor with
    | None => ac A == bl b /\ af A == bt b
    | Some (sx, sy) =>
        Qabs (ac A - bl b) < aa A /\ Qabs (af A - bt b) < - ae A /\
        (exists k : Z, ac A == (inject_Z k + sx) * aa A) /\
        (exists k : Z, af A == (inject_Z k + sy) * - ae A)
    end.
Proof.
  intros Hnx Hny Hx Hy Ht Hsn. unfold from_bbox. cbn [bind].
  rewrite (proj2 (Z.eqb_neq nx 0)), (proj2 (Z.eqb_neq ny 0)) by lia.
  destruct (pixel_le_span (span_x b) nx) as [Px Lx]; [unfold span_x; lra | exact Hnx |].
  destruct (pixel_le_span (span_y b) ny) as [Py Ly]; [unfold span_y; lra | exact Hny |].
  assert (Ery : - span_y b / inject_Z ny == - (span_y b / inject_Z ny)) by (apply inject_Z_ge1 in Hny; field; lra).
  assert (Eax : Qabs (span_x b / inject_Z nx) == span_x b / inject_Z nx) by (apply Qabs_pos; lra).
  assert (Eay : Qabs (- span_y b / inject_Z ny) == span_y b / inject_Z ny) by (rewrite Ery, Qabs_opp; apply Qabs_pos; lra).
  destruct (snap_of tight anchor) as [[sx sy]|].
  - destruct Hsn as [Hsx Hsy].
    destruct (snap_grid_some_near (bl b) (br b) (span_x b / inject_Z nx) sx tol) as (ox & ? & kx & -> & Kx & Dx);
      [lra | assumption.. | rewrite Eax; exact Lx |].
    destruct (snap_grid_some_near (bb b) (bt b) (- span_y b / inject_Z ny) sy tol) as (oy & ? & ky & -> & Ky & Dy);
      [lra | assumption.. | rewrite Eay; exact Ly |].
    rewrite (proj2 (Qltb_true _ _) Px), Eax in Dx. rewrite (proj2 (Qltb_false _ _)), Eay in Dy by lra.
    rewrite Eax in Kx. rewrite Eay in Ky.
    cbn [bind fst snd]. eexists. split; [reflexivity|].
    destruct (shape_affine b ny nx ox oy Hnx Hny) as (Ea & Ee & Eb & Ed & Mx & My & Ec & Ef).
    repeat (split; [assumption|]).
    split; [rewrite Ec, Ea; exact Dx|]. split; [rewrite Ef, Ee, Qopp_opp; exact Dy|].
    split; [exists kx; rewrite Ec, Ea; exact Kx | exists ky; rewrite Ef, Ee, Qopp_opp; exact Ky].
  - cbn [bind fst snd]. eexists. split; [reflexivity|]. apply shape_affine; assumption.
Qed.

Lemma from_bbox_int_shape b tight n resolution anchor tol :
  ~ span_y b == 0 -> ~ n == 0 ->
  from_bbox b tight (ShScalar n) resolution anchor tol =
  from_bbox b tight ShNone
            (Some (RScalar ((if Qltb 1 (span_x b / span_y b) then span_x b else span_y b) / n))) anchor tol.
Proof.
  intros Hy Hn. unfold from_bbox. rewrite (Qeq_bool_false _ _ Hy), (Qeq_bool_false _ _ Hn).
  destruct (Qltb 1 (span_x b / span_y b)); reflexivity.
Qed.

Lemma from_bbox_int_shape_tight b (m : Z) resolution anchor tol :
  (1 <= m)%Z -> bl b < br b -> bb b < bt b -> 0 <= tol ->
  exists nx ny A, from_bbox b true (ShScalar (inject_Z m)) resolution anchor tol = Ok ((ny, nx), A) /\
                  (if Qltb 1 (span_x b / span_y b) then nx = m else ny = m) /\
                  ae A == - aa A /\ (1 <= nx)%Z /\ (1 <= ny)%Z.
Proof.
  intros Hm Hx Hy Ht.
  assert (Sx : 0 < span_x b) by (unfold span_x; lra). assert (Sy : 0 < span_y b) by (unfold span_y; lra).
  pose proof (inject_Z_ge1 m Hm) as Nm.
  rewrite from_bbox_int_shape, (from_bbox_res _ _ ShNone _ _ _ I) by lra.
  cbn [res_xy snap_of option_map fst snd].
  (* the longest side is a whole number [m] of pixels; the other side is merely covered *)
  remember (if Qltb 1 (span_x b / span_y b) then span_x b else span_y b) as s eqn:Es.
  assert (Ps : 0 < s) by (subst s; destruct (Qltb 1 _); assumption).
  assert (Pr : 0 < s / inject_Z m) by (apply Qlt_shift_div_l; lra).
  assert (Em : s == inject_Z m * (s / inject_Z m)) by (field; lra).
  unfold span_x, span_y in *. destruct (Qltb 1 _); subst s.
  - rewrite (snap_grid_none_exact (bl b) (br b) _ tol m Hm) by (rewrite ?Qabs_pos; lra).
    destruct (snap_grid_none_spec (bb b) (bt b) (- ((br b - bl b) / inject_Z m)) tol) as (ny & -> & Ny & _); [lra..|].
    eexists m, ny, _. split; [reflexivity|]. cbn. repeat split; (assumption || ring).
  - destruct (snap_grid_none_spec (bl b) (br b) ((bt b - bb b) / inject_Z m) tol) as (nx & -> & Nx & _); [lra..|].
    rewrite (snap_grid_none_exact (bb b) (bt b) _ tol m Hm) by (rewrite ?Qabs_opp, ?Qabs_pos; lra).
    eexists nx, m, _. split; [reflexivity|]. cbn. repeat split; (assumption || ring).
Qed.

Lemma Qmin2_le a b : Qmin2 a b <= a /\ Qmin2 a b <= b.
Proof. exact (QMinMax.qmin_lb a b). Qed.
Lemma Qmax2_ge a b : a <= Qmax2 a b /\ b <= Qmax2 a b.
Proof. exact (QMinMax.qmax_ub a b). Qed.

Definition inside (b : bbox) (p : Q * Q) : Prop :=
  bl b <= fst p /\ fst p <= br b /\ bb b <= snd p /\ snd p <= bt b.

Lemma bbox_grow acc q p : inside acc p \/ p = q ->
  inside (mkBBox (Qmin2 (bl acc) (fst q)) (Qmin2 (bb acc) (snd q)) (Qmax2 (br acc) (fst q)) (Qmax2 (bt acc) (snd q))) p.
Proof.
  pose proof (Qmin2_le (bl acc) (fst q)). pose proof (Qmin2_le (bb acc) (snd q)).
  pose proof (Qmax2_ge (br acc) (fst q)). pose proof (Qmax2_ge (bt acc) (snd q)).
  unfold inside; simpl. intros [(?&?&?&?)| ->]; repeat split; lra.
Qed.

Lemma bbox_fold_contains pts : forall acc p, inside acc p \/ In p pts ->
  inside (fold_left (fun acc p => mkBBox (Qmin2 (bl acc) (fst p)) (Qmin2 (bb acc) (snd p))
                                 (Qmax2 (br acc) (fst p)) (Qmax2 (bt acc) (snd p))) pts acc) p.
Proof. exact (ListSel.fold_left_covers inside _ bbox_grow pts). Qed.

Lemma bbox_of_points_contains p0 pts p : In p (p0 :: pts) -> inside (bbox_of_points p0 pts) p.
Proof.
  intros [<-|H]; apply bbox_fold_contains; [left | right; exact H].
  unfold inside; simpl. repeat split; lra.
Qed.

Lemma bbox_of_points_ordered p0 pts :
  bl (bbox_of_points p0 pts) <= br (bbox_of_points p0 pts) /\ bb (bbox_of_points p0 pts) <= bt (bbox_of_points p0 pts).
Proof.
  destruct (bbox_of_points_contains p0 pts p0 (or_introl eq_refl)) as (H1 & H2 & H3 & H4). split; lra.
Qed.

(** legacy [align] (CRS units) becomes an anchor (pixel fraction): edges sit at
    [align + k * |res|] *)
Lemma from_geopolygon_align b rr ax ay shape tol anchor :
  not_scalar shape ->
  ~ fst (res_xy rr) == 0 -> ~ snd (res_xy rr) == 0 ->
  ~ (ax == 0 /\ ay == 0) ->
  0 <= ax -> ax < Qabs (fst (res_xy rr)) -> 0 <= ay -> ay < Qabs (snd (res_xy rr)) ->
  bl b <= br b -> bb b <= bt b -> 0 <= tol ->
  exists nx ny offx offy A,
    from_geopolygon_bbox b (Some rr) (Some (ax, ay)) shape false anchor tol = Ok ((ny, nx), A) /\
    aff_eq A (mkAff (fst (res_xy rr)) 0 offx 0 (snd (res_xy rr)) offy) /\
    axis_spec (bl b) (br b) (fst (res_xy rr)) (Some (ax / Qabs (fst (res_xy rr)))) tol offx nx /\
    axis_spec (bb b) (bt b) (snd (res_xy rr)) (Some (ay / Qabs (snd (res_xy rr)))) tol offy ny /\
    (exists k : Z, offx == inject_Z k * Qabs (fst (res_xy rr)) + ax) /\
    (exists k : Z, offy == inject_Z k * Qabs (snd (res_xy rr)) + ay).
Proof.
  intros Hs Hrx Hry Hz Ax0 Ax1 Ay0 Ay1 Hx Hy Ht. unfold from_geopolygon_bbox.
  assert (E0 : Qeq_bool ax 0 && Qeq_bool ay 0 = false).
  { apply not_true_is_false. intros E%andb_true_iff. apply Hz. split; apply Qeq_bool_iff, E. }
  rewrite E0. destruct (res_xy rr) as [rx ry] eqn:ER. cbn [fst snd] in *.
  rewrite (Qeq_bool_false _ _ Hrx), (Qeq_bool_false _ _ Hry). cbn [bind fst snd].
  pose proof (Qabs_nonzero rx Hrx) as Px. pose proof (Qabs_nonzero ry Hry) as Py.
  assert (Ok2 : snap2_ok (snap_of false (AnXY (ax / Qabs rx) (ay / Qabs ry)))).
  { simpl. repeat split; (apply Qle_shift_div_l || apply Qlt_shift_div_r); lra. }
  destruct (from_bbox_resolution b false shape (RXY rx ry) (AnXY (ax / Qabs rx) (ay / Qabs ry)) tol Hs Hrx Hry Hx Hy Ht Ok2)
    as (nx & ny & offx & offy & A & E & EA & Sx & Sy).
  cbn [res_xy fst snd snap_of norm_anchor option_map] in *.
  exists nx, ny, offx, offy, A. split; [exact E|]. split; [exact EA|]. split; [exact Sx|]. split; [exact Sy|].
  destruct Sx as (_ & _ & _ & _ & _ & _ & _ & _ & (kx & Kx)).
  destruct Sy as (_ & _ & _ & _ & _ & _ & _ & _ & (ky & Ky)).
  split; [exists kx; rewrite Kx; field; lra | exists ky; rewrite Ky; field; lra].
Qed.

Lemma from_geopolygon_no_align b resolution shape tight anchor tol :
  from_geopolygon_bbox b resolution None shape tight anchor tol = from_bbox b tight shape resolution anchor tol.
Proof. reflexivity. Qed.

Lemma from_geopolygon_zero_align b resolution shape tight anchor tol :
  from_geopolygon_bbox b resolution (Some (0, 0)) shape tight anchor tol = from_bbox b tight shape resolution AnEdge tol.
Proof. reflexivity. Qed.

Lemma zoom_to_resolution_spec (g : gbox) rr tol :
  ~ fst (res_xy rr) == 0 -> ~ snd (res_xy rr) == 0 -> 0 <= tol ->
  let B := bbox_from_transform (fst g) (snd g) in
  exists nx ny offx offy A,
    zoom_to_resolution g rr tol = Ok ((ny, nx), A) /\
    aff_eq A (mkAff (fst (res_xy rr)) 0 offx 0 (snd (res_xy rr)) offy) /\
    axis_spec (bl B) (br B) (fst (res_xy rr)) None tol offx nx /\
    axis_spec (bb B) (bt B) (snd (res_xy rr)) None tol offy ny /\
    (let '(ny0, nx0) := fst g in
     forall p, In p [(0, 0); (inject_Z nx0, 0); (inject_Z nx0, inject_Z ny0); (0, inject_Z ny0)] ->
               inside B (aff_apply (snd g) p)).
Proof.
  intros Hrx Hry Ht B. unfold zoom_to_resolution. fold B.
  assert (Ord : bl B <= br B /\ bb B <= bt B).
  { unfold B, bbox_from_transform. destruct (fst g) as [ny0 nx0]. apply bbox_of_points_ordered. }
  destruct Ord as [Ox Oy].
  destruct (from_bbox_resolution B true ShNone rr AnDefault tol I Hrx Hry Ox Oy Ht I)
    as (nx & ny & offx & offy & A & E & EA & Sx & Sy).
  exists nx, ny, offx, offy, A. split; [exact E|]. split; [exact EA|]. split; [exact Sx|]. split; [exact Sy|].
  unfold B, bbox_from_transform. destruct (fst g) as [ny0 nx0].
  intros p Hp. apply bbox_of_points_contains.
  simpl in Hp. destruct Hp as [<-|[<-|[<-|[<-|[]]]]]; simpl; auto.
Qed.
