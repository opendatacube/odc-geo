(** One-axis grid snapping (math._snap_edge_pos, _snap_edge, snap_grid).

    [fits] is the contract of a snapped axis: its pixels cover the interval up to
    the tolerance, with less than a pixel to spare.  For a positive pixel size it
    comes from the two facts about [Qfloor (maybe_int (x / a) tol)] and
    [Qceiling (maybe_int (x / a) tol)] at the head of the file; [snap_edge] runs
    the same computation with [- rs] for a negative pixel size, and [snap_grid]
    shifts the interval by the anchor offset [o * Qabs rs] ([fits_shift]).  The
    lemmas about [off_pix = None] and the error cases follow, and the last clause
    of the two facts gives the minimality of the pixel count (the lemmas named
    [..._min]). *)
From Coq Require Import ZArith QArith Qround Qabs Lia Lqa.
From OG Require Import Base.Result Base.QZ Model.MathH Proofs.MathHBasics.
Open Scope Q_scope.

(** [1 # 2]: maybe_int moves [x / a] to an integer only from within half a unit.
    The last clause is the one minimality needs: one pixel more would end
    beyond [x + tol * a]. *)
Lemma floor_maybe_int x a tol : 0 < a -> 0 <= tol ->
  let lo := inject_Z (Qfloor (maybe_int (x / a) tol)) * a in
  lo <= x + tol * a /\ lo <= x + (1 # 2) * a /\ x - a < lo /\ (tol <= 1 # 2 -> x + tol * a <= lo + a).
Proof.
  intros Ha Ht. assert (Ex : x == x / a * a) by (field; lra). set (u := x / a) in *. cbv zeta.
  destruct (maybe_int_cases u tol) as [(n & _ & -> & Hn%Qabs_Qlt_condition & H1 & H2)|(_ & -> & Hn)].
  - rewrite Qfloor_Z. repeat split; intros; nra.
  - destruct (Qfloor_spec u) as (f & Ef & F1 & F2). specialize (Hn (Qfloor u + 1)%Z).
    rewrite inject_Z_plus, inj1, <- Ef, Qabs_neg in Hn by lra. rewrite <- Ef. repeat split; intros; nra.
Qed.

Lemma ceil_maybe_int x a tol : 0 < a -> 0 <= tol ->
  let hi := inject_Z (Qceiling (maybe_int (x / a) tol)) * a in
  x - tol * a <= hi /\ x - (1 # 2) * a <= hi /\ hi < x + a /\ (tol <= 1 # 2 -> hi - a <= x - tol * a).
Proof.
  intros Ha Ht. assert (Ex : x == x / a * a) by (field; lra). set (u := x / a) in *. cbv zeta.
  destruct (maybe_int_cases u tol) as [(n & _ & -> & Hn%Qabs_Qlt_condition & H1 & H2)|(_ & -> & Hn)].
  - rewrite Qceiling_Z. repeat split; intros; nra.
  - destruct (Qceiling_spec u) as (c & Ec & C1 & C2). specialize (Hn (Qceiling u - 1)%Z).
    rewrite inject_Z_sub, inj1, <- Ec, Qabs_pos in Hn by lra. rewrite <- Ec. repeat split; intros; nra.
Qed.

Lemma max1_scaled (c : Z) a : 0 < a ->
  let w := inject_Z (Z.max 1 c) * a in
  inject_Z c * a <= w /\ (w == inject_Z c * a \/ Z.max 1 c = 1%Z /\ w == a).
Proof.
  intros Ha. cbv zeta. destruct (Z.max_spec 1 c) as [[L ->]|[L ->]].
  - split; [lra | left; reflexivity].
  - rewrite Zle_Qle, inj1 in L. rewrite inj1. split; [nra | right; split; [reflexivity | lra]].
Qed.

(** The contract of one snapped axis: the [n] pixels of size [a] between [lo]
    and [hi] cover [x0, x1] up to [tol] pixel (and never miss more than half a
    pixel), with less than a pixel to spare on either side, a single pixel
    being the minimum. *)
Definition fits (x0 x1 a tol lo hi : Q) (n : Z) : Prop :=
  (1 <= n)%Z /\ 0 < a /\ hi == lo + inject_Z n * a /\
  lo <= x0 + tol * a /\ lo <= x0 + (1 # 2) * a /\ x0 - a < lo /\
  x1 - tol * a <= hi /\ x1 - (1 # 2) * a <= hi /\ (hi < x1 + a \/ n = 1%Z).

Global Instance fits_comp : Proper (eq ==> eq ==> Qeq ==> eq ==> Qeq ==> Qeq ==> eq ==> iff) fits.
Proof.
  intros x0 ? <- x1 ? <- a ? Ea tol ? <- lo ? El hi ? Eh n ? <-.
  unfold fits. rewrite Ea, El, Eh. reflexivity.
Qed.

Lemma fits_shift c x0 x1 a tol lo hi n :
  fits (x0 - c) (x1 - c) a tol lo hi n -> fits x0 x1 a tol (lo + c) (hi + c) n.
Proof.
  intros (H0 & H1 & H2 & H3 & H4 & H5 & H6 & H7 & H8).
  split; [exact H0|]. repeat split; try lra. destruct H8; [left; lra | right; assumption].
Qed.

(** the bounds in the form C08 and C20 state them *)
Lemma fits_snug x0 x1 a tol lo hi n : fits x0 x1 a tol lo hi n -> x0 <= x1 -> 0 <= tol ->
  lo <= x0 + tol * a /\ x0 - lo < a /\ x1 - tol * a <= hi /\ hi - x1 <= (1 + tol) * a /\
  (x0 < x1 -> hi - x1 < (1 + tol) * a) /\ (a <= x1 - x0 -> tol < 1 -> hi - x1 < a).
Proof.
  intros (_ & Ha & Eh & L1 & _ & L2 & C1 & _ & S) Hx Ht.
  pose proof (Qmult_le_0_compat tol a Ht (Qlt_le_weak _ _ Ha)) as T.
  assert (T1 : tol < 1 -> tol * a < a) by (intros T1; apply (Qmult_lt_compat_r tol 1 a Ha) in T1; lra).
  split; [exact L1|]. split; [lra|]. split; [exact C1|].
  destruct S as [S| ->]; [|rewrite inj1 in Eh];
    (split; [lra|]; split; [intros; lra | intros S1 T2; specialize (T1 T2); lra]).
Qed.

Lemma fits_near x0 x1 a tol lo hi n : fits x0 x1 a tol lo hi n -> a <= x1 - x0 ->
  Qabs (lo - x0) < a /\ Qabs (hi - x1) < a.
Proof.
  intros (_ & Ha & Eh & _ & L2 & L3 & _ & H2 & S) Hs.
  split; apply Qabs_Qlt_condition; [lra|]. destruct S as [S| ->]; [|rewrite inj1 in Eh]; lra.
Qed.

Lemma snap_edge_pos_spec x0 x1 a tol : 0 < a -> x0 <= x1 -> 0 <= tol ->
  exists k n, snap_edge_pos x0 x1 a tol = Ok (inject_Z k * a, n) /\
    fits x0 x1 a tol (inject_Z k * a) (inject_Z k * a + inject_Z n * a) n.
Proof.
  intros Ha Hx Ht. unfold snap_edge_pos.
  rewrite (proj2 (Qltb_true 0 a) Ha), (proj2 (Qle_bool_iff x0 x1) Hx). cbn [negb].
  destruct (floor_maybe_int x0 a tol Ha Ht) as (K1 & K2 & K3 & _).
  destruct (ceil_maybe_int x1 a tol Ha Ht) as (C1 & C2 & C3 & _).
  set (k := Qfloor _) in *. set (c := Qceiling _) in *.
  exists k, (Z.max 1 (c - k)). split; [reflexivity|].
  destruct (max1_scaled (c - k) a Ha) as (M1 & M2). rewrite inject_Z_sub in M1, M2.
  split; [apply Z.le_max_l|]. split; [exact Ha|]. split; [reflexivity|].
  split; [exact K1|]. split; [exact K2|]. split; [exact K3|]. split; [lra|]. split; [lra|].
  destruct M2 as [M2|[M2 _]]; [left; lra | right; exact M2].
Qed.

Lemma snap_edge_pos_err_res x0 x1 rs tol : rs <= 0 -> snap_edge_pos x0 x1 rs tol = Err (EAssert 173).
Proof.
  intros H. unfold snap_edge_pos. rewrite (proj2 (Qltb_false 0 rs) H). reflexivity.
Qed.

(** _snap_edge: for a negative resolution [tx] is the high edge and the grid runs
    downwards to [tx + nx*rs] *)
Lemma snap_edge_spec x0 x1 rs tol : ~ rs == 0 -> x0 <= x1 -> 0 <= tol ->
  exists tx nx k, snap_edge x0 x1 rs tol = Ok (tx, nx) /\ tx == inject_Z k * Qabs rs /\
    fits x0 x1 (Qabs rs) tol (if Qltb 0 rs then tx else tx + inject_Z nx * rs)
                             (if Qltb 0 rs then tx + inject_Z nx * rs else tx) nx.
Proof.
  intros Hr Hx Ht. unfold snap_edge. rewrite (proj2 (Qle_bool_iff x0 x1) Hx). cbn [negb].
  destruct (Qltb_spec 0 rs) as [P|P].
  - destruct (snap_edge_pos_spec x0 x1 rs tol P Hx Ht) as (k & nx & -> & F).
    exists (inject_Z k * rs), nx, k. rewrite (Qabs_pos rs) by lra.
    exact (conj eq_refl (conj (Qeq_refl _) F)).
  - assert (P' : 0 < - rs) by lra.
    destruct (snap_edge_pos_spec x0 x1 (- rs) tol P' Hx Ht) as (k & nx & -> & F).
    cbn [bind]. eexists _, nx, (k + nx)%Z. rewrite (Qabs_neg rs) by lra.
    split; [reflexivity|]. split; [rewrite inject_Z_plus; ring|].
    setoid_replace (inject_Z k * - rs + inject_Z nx * - rs + inject_Z nx * rs) with (inject_Z k * - rs) by ring.
    exact F.
Qed.

Lemma snap_edge_err_order x0 x1 rs tol : x1 < x0 -> snap_edge x0 x1 rs tol = Err (EAssert 182).
Proof.
  intros H. unfold snap_edge. rewrite (proj2 (Qle_bool_false x0 x1) H). reflexivity.
Qed.

Lemma snap_edge_err_zero x0 x1 rs tol : x0 <= x1 -> rs == 0 -> snap_edge x0 x1 rs tol = Err (EAssert 173).
Proof.
  intros Hx H. unfold snap_edge.
  rewrite (proj2 (Qle_bool_iff x0 x1) Hx), (proj2 (Qltb_false 0 rs)), snap_edge_pos_err_res by lra.
  reflexivity.
Qed.

Definition off_ok (off : option Q) : Prop :=
  match off with None => True | Some o => 0 <= o /\ o < 1 end.

Lemma off_ok_bool o : off_ok (Some o) -> negb (Qle_bool 0 o && Qltb o 1) = false.
Proof.
  intros [H1 H2]. rewrite (proj2 (Qle_bool_iff 0 o) H1), (proj2 (Qltb_true o 1) H2). reflexivity.
Qed.

Lemma snap_grid_some_spec x0 x1 rs o tol : ~ rs == 0 -> x0 <= x1 -> off_ok (Some o) -> 0 <= tol ->
  exists tx nx k, snap_grid x0 x1 rs (Some o) tol = Ok (tx, nx) /\
    tx == (inject_Z k + o) * Qabs rs /\
    fits x0 x1 (Qabs rs) tol (if Qltb 0 rs then tx else tx + inject_Z nx * rs)
                             (if Qltb 0 rs then tx + inject_Z nx * rs else tx) nx.
Proof.
  intros Hr Hx Ho Ht. unfold snap_grid. rewrite (off_ok_bool o Ho).
  destruct (snap_edge_spec (x0 - o * Qabs rs) (x1 - o * Qabs rs) rs tol Hr) as (tx & nx & k & -> & A & F);
    [lra | exact Ht |].
  cbn [bind]. eexists _, nx, k. split; [reflexivity|]. split; [rewrite A; ring|].
  apply fits_shift in F. revert F. apply fits_comp; try reflexivity; destruct (Qltb 0 rs); ring.
Qed.

Lemma snap_grid_some_near x0 x1 rs o tol :
  ~ rs == 0 -> off_ok (Some o) -> 0 <= tol -> Qabs rs <= x1 - x0 ->
  exists tx nx k, snap_grid x0 x1 rs (Some o) tol = Ok (tx, nx) /\
    tx == (inject_Z k + o) * Qabs rs /\ Qabs (tx - (if Qltb 0 rs then x0 else x1)) < Qabs rs.
Proof.
  intros Hr Ho Ht S. pose proof (Qabs_nonzero rs Hr) as Pa.
  destruct (snap_grid_some_spec x0 x1 rs o tol Hr) as (tx & nx & k & E & A & F); [lra | assumption..|].
  exists tx, nx, k. split; [exact E|]. split; [exact A|].
  apply fits_near in F; [|exact S]. destruct (Qltb 0 rs); apply F.
Qed.

(** snap_grid without snapping ([off_pix = None]): the pixel count for a span [d] *)
Lemma ceil_span d a tol : 0 <= d -> 0 < a -> 0 <= tol ->
  let w := inject_Z (Z.max 1 (Qceiling (maybe_int (d / a) tol))) * a in
  d - tol * a <= w /\ d - (1 # 2) * a <= w /\ w - d <= a /\ (0 < d -> w - d < a).
Proof.
  intros Hd Ha Ht. destruct (ceil_maybe_int d a tol Ha Ht) as (C1 & C2 & C3 & _).
  set (c := Qceiling _) in *. destruct (max1_scaled c a Ha) as (M1 & M2). cbv zeta.
  destruct M2 as [M2|[_ M2]]; repeat split; intros; lra.
Qed.

Lemma snap_grid_none_spec x0 x1 rs tol : ~ rs == 0 -> x0 <= x1 -> 0 <= tol ->
  exists nx, snap_grid x0 x1 rs None tol = Ok (if Qltb 0 rs then x0 else x1, nx) /\ (1 <= nx)%Z /\
    x1 - x0 - tol * Qabs rs <= inject_Z nx * Qabs rs /\
    x1 - x0 - (1 # 2) * Qabs rs <= inject_Z nx * Qabs rs /\
    inject_Z nx * Qabs rs - (x1 - x0) <= Qabs rs /\
    (0 < x1 - x0 -> inject_Z nx * Qabs rs - (x1 - x0) < Qabs rs).
Proof.
  intros Hr Hx Ht. unfold snap_grid. destruct (Qltb_spec 0 rs) as [P|P].
  - eexists. split; [reflexivity|]. split; [apply Z.le_max_l|].
    rewrite (Qabs_pos rs) by lra. apply ceil_span; lra.
  - rewrite (Qeq_bool_false rs 0 Hr).
    eexists. split; [reflexivity|]. split; [apply Z.le_max_r|].
    rewrite Z.max_comm, (Qabs_neg rs) by lra. apply ceil_span; lra.
Qed.

Lemma fits_floating x0 x1 a tol n (w := inject_Z n * a) :
  (1 <= n)%Z -> 0 < a -> x0 < x1 -> 0 <= tol ->
  x1 - x0 - tol * a <= w /\ x1 - x0 - (1 # 2) * a <= w /\ w - (x1 - x0) <= a /\ (0 < x1 - x0 -> w - (x1 - x0) < a) ->
  fits x0 x1 a tol x0 (x0 + w) n /\ fits x0 x1 a tol (x1 - w) x1 n.
Proof.
  intros Hn Ha Hx Ht (W1 & W2 & _ & W3). pose proof (Qmult_le_0_compat tol a Ht (Qlt_le_weak _ _ Ha)) as T.
  split; (split; [exact Hn|]; split; [exact Ha|]; split; [unfold w; ring|]); repeat split; try lra; left; lra.
Qed.

Lemma snap_grid_none_fits x0 x1 rs tol : ~ rs == 0 -> x0 < x1 -> 0 <= tol ->
  exists tx n, snap_grid x0 x1 rs None tol = Ok (tx, n) /\ tx = (if Qltb 0 rs then x0 else x1) /\
    fits x0 x1 (Qabs rs) tol (if Qltb 0 rs then tx else tx + inject_Z n * rs)
                             (if Qltb 0 rs then tx + inject_Z n * rs else tx) n.
Proof.
  intros Hr Hx Ht. destruct (snap_grid_none_spec x0 x1 rs tol Hr (Qlt_le_weak _ _ Hx) Ht) as (n & E & N & W).
  eexists _, n. split; [exact E|]. split; [reflexivity|].
  destruct (fits_floating x0 x1 (Qabs rs) tol n N (Qabs_nonzero rs Hr) Hx Ht W) as [F0 F1].
  destruct (Qltb_spec 0 rs) as [P|P]; [revert F0 | revert F1]; apply fits_comp; try reflexivity.
  - rewrite Qabs_pos by lra. reflexivity.
  - rewrite Qabs_neg by lra. ring.
Qed.

Lemma snap_grid_none_exact x0 x1 rs tol (n : Z) : (1 <= n)%Z -> ~ rs == 0 ->
  x1 - x0 == inject_Z n * Qabs rs ->
  snap_grid x0 x1 rs None tol = Ok (if Qltb 0 rs then x0 else x1, n).
Proof.
  intros Hn Hr E. unfold snap_grid. destruct (Qltb_spec 0 rs) as [P|P].
  - rewrite (Qabs_pos rs) in E by lra.
    setoid_replace ((x1 - x0) / rs) with (inject_Z n) by (rewrite E; apply Qdiv_mult_l; lra).
    rewrite maybe_int_of_Z, Qceiling_Z, Z.max_r by lia. reflexivity.
  - rewrite (Qabs_neg rs) in E by lra. rewrite (Qeq_bool_false rs 0 Hr).
    setoid_replace ((x1 - x0) / - rs) with (inject_Z n) by (rewrite E; apply Qdiv_mult_l; lra).
    rewrite maybe_int_of_Z, Qceiling_Z, Z.max_l by lia. reflexivity.
Qed.

Lemma snap_grid_err_off x0 x1 rs o tol : ~ off_ok (Some o) -> snap_grid x0 x1 rs (Some o) tol = Err (EAssert 207).
Proof.
  intros H. unfold snap_grid.
  destruct (Qle_bool_spec 0 o); [|reflexivity]. destruct (Qltb_spec o 1); [|reflexivity].
  exfalso. apply H. split; assumption.
Qed.

Lemma snap_grid_err_zero x0 x1 rs o tol : rs == 0 -> exists e, snap_grid x0 x1 rs o tol = Err e.
Proof.
  intros H. unfold snap_grid. destruct o as [o|].
  - destruct (negb (Qle_bool 0 o && Qltb o 1)); [eauto|].
    destruct (Qle_bool_spec (x0 - o * Qabs rs) (x1 - o * Qabs rs)) as [L|L].
    + rewrite snap_edge_err_zero by assumption. cbn [bind]. eauto.
    + rewrite snap_edge_err_order by assumption. cbn [bind]. eauto.
  - rewrite (proj2 (Qltb_false 0 rs)), (proj2 (Qeq_bool_iff rs 0) H) by lra. eauto.
Qed.

Lemma snap_grid_err_order x0 x1 rs o tol : x1 < x0 -> off_ok (Some o) ->
  snap_grid x0 x1 rs (Some o) tol = Err (EAssert 182).
Proof.
  intros H Ho. unfold snap_grid. rewrite (off_ok_bool o Ho).
  rewrite snap_edge_err_order by lra. reflexivity.
Qed.

Lemma snap_grid_ok_inv x0 x1 rs off tol r :
  snap_grid x0 x1 rs off tol = Ok r -> ~ rs == 0 /\ off_ok off.
Proof.
  intros H. split.
  - intros Z. destruct (snap_grid_err_zero x0 x1 rs off tol Z) as (e & E). congruence.
  - destruct off as [o|]; [|exact I].
    destruct (Qle_bool_spec 0 o) as [O1|O1]; [destruct (Qltb_spec o 1) as [O2|O2]; [split; assumption|]|];
      rewrite snap_grid_err_off in H by (unfold off_ok; lra); discriminate.
Qed.

(** Minimality of the pixel count (0 <= tol <= 1/2): the grid cannot start one
    pixel later, nor end one pixel earlier, and still cover the interval up to
    [tol] pixel.  (At the exact boundary "distance to the integer = tol" the
    code keeps the pixel, hence the non-strict bounds.) *)
Lemma snap_edge_pos_min x0 x1 rs tol tx nx : 0 < rs -> 0 <= tol -> tol <= 1 # 2 ->
  snap_edge_pos x0 x1 rs tol = Ok (tx, nx) ->
  x0 + tol * rs <= tx + rs /\ ((2 <= nx)%Z -> tx + inject_Z nx * rs - rs <= x1 - tol * rs).
Proof.
  intros Hr Ht Hh. unfold snap_edge_pos.
  destruct (negb (Qltb 0 rs)); [discriminate|]. destruct (negb (Qle_bool x0 x1)); [discriminate|].
  intros H. injection H as <- <-. split; [apply (floor_maybe_int x0 rs tol Hr Ht), Hh|].
  intros N2. rewrite Z.max_r, inject_Z_sub by lia.
  destruct (ceil_maybe_int x1 rs tol Hr Ht) as (_ & _ & _ & C). specialize (C Hh). lra.
Qed.

Lemma snap_edge_min x0 x1 rs tol tx nx : ~ rs == 0 -> 0 <= tol -> tol <= 1 # 2 ->
  snap_edge x0 x1 rs tol = Ok (tx, nx) ->
  let a := Qabs rs in
  let lo := if Qltb 0 rs then tx else tx + inject_Z nx * rs in
  x0 + tol * a <= lo + a /\ ((2 <= nx)%Z -> lo + inject_Z nx * a - a <= x1 - tol * a).
Proof.
  intros Hr Ht Hh. unfold snap_edge. destruct (negb (Qle_bool x0 x1)); [discriminate|]. cbv zeta.
  destruct (Qltb_spec 0 rs) as [B|B].
  - rewrite (Qabs_pos rs) by lra. apply snap_edge_pos_min; assumption.
  - assert (P : 0 < - rs) by lra.
    destruct (snap_edge_pos x0 x1 (- rs) tol) as [[tx' nx']|] eqn:E; [|discriminate].
    cbn [bind]. intros H. injection H as <- <-.
    apply snap_edge_pos_min in E; try assumption. destruct E as [A1 A2].
    rewrite (Qabs_neg rs) by lra. split; [lra | intros N2; specialize (A2 N2); lra].
Qed.

Lemma snap_grid_some_min x0 x1 rs o tol tx nx : ~ rs == 0 -> 0 <= tol -> tol <= 1 # 2 ->
  snap_grid x0 x1 rs (Some o) tol = Ok (tx, nx) ->
  let a := Qabs rs in
  let lo := if Qltb 0 rs then tx else tx + inject_Z nx * rs in
  x0 + tol * a <= lo + a /\ ((2 <= nx)%Z -> lo + inject_Z nx * a - a <= x1 - tol * a).
Proof.
  intros Hr Ht Hh. unfold snap_grid. destruct (negb (Qle_bool 0 o && Qltb o 1)); [discriminate|].
  destruct (snap_edge (x0 - o * Qabs rs) (x1 - o * Qabs rs) rs tol) as [[tx' nx']|] eqn:E; [|discriminate].
  cbn [bind]. intros H. injection H as <- <-.
  apply snap_edge_min in E; try assumption. cbv zeta in E |- *. destruct E as [A1 A2].
  destruct (Qltb 0 rs); (split; [lra | intros N2; specialize (A2 N2); lra]).
Qed.

Lemma snap_grid_none_min x0 x1 rs tol tx nx : ~ rs == 0 -> 0 <= tol -> tol <= 1 # 2 ->
  snap_grid x0 x1 rs None tol = Ok (tx, nx) ->
  (2 <= nx)%Z -> (inject_Z nx - 1) * Qabs rs <= x1 - x0 - tol * Qabs rs.
Proof.
  intros Hr Ht Hh. unfold snap_grid. destruct (Qltb_spec 0 rs) as [B|B].
  - intros H. injection H as _ <-. intros N2. rewrite Z.max_r, (Qabs_pos rs) by (lia || lra).
    destruct (ceil_maybe_int (x1 - x0) rs tol B Ht) as (_ & _ & _ & C). specialize (C Hh). lra.
  - destruct (Qeq_bool rs 0); [discriminate|]. intros H. injection H as _ <-. intros N2.
    assert (P : 0 < - rs) by lra. rewrite Z.max_l, (Qabs_neg rs) by (lia || lra).
    destruct (ceil_maybe_int (x1 - x0) (- rs) tol P Ht) as (_ & _ & _ & C). specialize (C Hh). lra.
Qed.
