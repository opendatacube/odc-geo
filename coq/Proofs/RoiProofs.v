(** The slice helpers of odc/geo/roi.py (property C17): normalisation keeps the
    selection, three-way intersection, shape and fullness, padding, and
    [align_down]/[align_up] with scaling down then up. *)
From Coq Require Import ZArith List Bool Lia.
From OG Require Import Base.Result Base.ListSel Model.Roi.
Import ListNotations.
Open Scope Z_scope.

Definition step_ok (st : option Z) : Prop := match st with None => True | Some k => 0 < k end.

Lemma wrap_neg_nonneg n x : 0 <= wrap_neg n x.
Proof. unfold wrap_neg. destruct (Z.geb_spec x 0); lia. Qed.

Lemma wrap_neg_id n x : 0 <= x -> wrap_neg n x = x.
Proof. intros H; unfold wrap_neg. destruct (Z.geb_spec x 0); lia. Qed.

Lemma py_clamp_nonneg n v d : 0 <= v -> py_clamp n (Some v) d = Z.min v n.
Proof. intros H; unfold py_clamp. destruct (Z.ltb_spec v 0); [lia | reflexivity]. Qed.

Lemma py_clamp_in n v d : 0 <= v <= n -> py_clamp n (Some v) d = v.
Proof. intros H. rewrite py_clamp_nonneg by apply H. lia. Qed.

(* [d] is the default of the bound: 0 for a start, [n] for a stop. *)
Lemma py_clamp_wrap n x d : 0 <= d <= n ->
  py_clamp n (Some (wrap_neg n (fill x d))) d = py_clamp n x d.
Proof.
  intros Hd. destruct x as [v|]; cbn [fill].
  - unfold py_clamp, wrap_neg.
    destruct (Z.geb_spec v 0), (Z.ltb_spec v 0); try lia.
    destruct (Z.ltb_spec (Z.max 0 (n + v)) 0); lia.
  - rewrite wrap_neg_id, py_clamp_in by lia. reflexivity.
Qed.

(* whatever the step: it is the same on both sides *)
Lemma norm_slice_same_selection {A} (X : list A) a b st :
  np_get X (norm_slice (SSl a b st) (len X)) = np_get X (SSl a b st).
Proof.
  pose proof (len_nonneg X) as Hn.
  unfold norm_slice, np_get. rewrite !py_clamp_wrap by lia. reflexivity.
Qed.

Lemma norm_int_same_selection {A} (X : list A) i l :
  np_get X (SInt i) = Some l ->
  np_get X (norm_slice (SInt i) (len X)) = Some l.
Proof.
  unfold np_get at 1. destruct (_ && _) eqn:E; [|discriminate]. intros [= <-].
  unfold norm_slice, np_get.
  replace (len X + i) with (i + len X) by lia.
  set (j := if i <? 0 then i + len X else i).
  assert (Hj : 0 <= j < len X) by (subst j; destruct (i <? 0) eqn:E2; lia).
  rewrite !py_clamp_in by lia. reflexivity.
Qed.

Lemma norm_slice_in_range a b st n :
  0 <= a -> 0 <= b -> norm_slice (SSl (Some a) (Some b) st) n = SSl (Some a) (Some b) st.
Proof. intros; unfold norm_slice; cbn [fill]; rewrite !wrap_neg_id by assumption; reflexivity. Qed.

Lemma norm_slice_bounds s n : 0 <= n ->
  match s with SInt i => - n <= i | _ => True end ->
  exists a b st, norm_slice s n = SSl (Some a) (Some b) st /\ 0 <= a /\ 0 <= b.
Proof.
  intros Hn Hs; destruct s as [i|a b st]; unfold norm_slice;
    eexists _, _, _; (split; [reflexivity|]).
  - destruct (i <? 0) eqn:E; lia.
  - split; apply wrap_neg_nonneg.
Qed.

Lemma norm_slice_or_error_nonneg s a0 a1 st :
  norm_slice_or_error s = Ok (a0, a1, st) -> 0 <= a0 /\ 0 <= a1.
Proof.
  destruct s as [i|x [y|] st']; simpl; [| |discriminate];
    (destruct (_ || _) eqn:E; [discriminate|]; intros [= <- <- _]; lia).
Qed.

Lemma slice_intersect3_spec {A} (X : list A) a b a0 a1 sa b0 b1 sb :
  norm_slice_or_error a = Ok (a0, a1, sa) ->
  norm_slice_or_error b = Ok (b0, b1, sb) ->
  a0 <= a1 -> b0 <= b1 ->
  exists a' b' ab',
    slice_intersect3 a b = Ok (a', b', ab') /\
    0 <= fst a' <= snd a' /\ 0 <= fst b' <= snd b' /\ 0 <= fst ab' <= snd ab' /\
    sel (sel X a0 a1) (fst a') (snd a') = sel X (fst ab') (snd ab') /\
    sel (sel X b0 b1) (fst b') (snd b') = sel X (fst ab') (snd ab') /\
    (forall i, fst ab' <= i < snd ab' <-> (a0 <= i < a1 /\ b0 <= i < b1)).
Proof.
  intros Ha Hb Hle1 Hle2.
  pose proof (norm_slice_or_error_nonneg _ _ _ _ Ha).
  pose proof (norm_slice_or_error_nonneg _ _ _ _ Hb).
  unfold slice_intersect3. rewrite Ha, Hb. cbn [bind].
  destruct (a1 <? b0) eqn:E1; [|destruct (a0 >? b1) eqn:E2];
    (eexists _, _, _; split; [reflexivity|]; cbn [fst snd]).
  (* [a] and [b] do not meet: all three selections are empty *)
  1-2: repeat split; try lia;
    (transitivity (@nil A); [apply sel_empty; lia | symmetry; apply sel_empty; lia]).
  repeat split; try lia; (rewrite sel_sel by lia; f_equal; lia).
Qed.

Lemma norm_slice_or_error_spec s :
  match s with
  | SInt i => if i <? 0 then norm_slice_or_error s = Err EValue
              else norm_slice_or_error s = Ok (i, i + 1, None)
  | SSl a None st => norm_slice_or_error s = Err EValue
  | SSl a (Some b) st =>
      if (b <? 0) || (fill a 0 <? 0) then norm_slice_or_error s = Err EValue
      else norm_slice_or_error s = Ok (fill a 0, b, st)
  end.
Proof.
  destruct s as [i|a [b|] st]; simpl; auto.
  - destruct (i <? 0) eqn:E; destruct (i + 1 <? 0) eqn:E2; simpl; auto; lia.
  - destruct ((b <? 0) || (fill a 0 <? 0)); reflexivity.
Qed.

Lemma slice_dim_open_start {A} (X : list A) b st :
  0 <= b <= len X -> slice_dim (SSl None (Some b) st) = Ok (len (sel X 0 b)).
Proof. intros; simpl; rewrite len_sel by lia; f_equal; lia. Qed.

Lemma slice_dim_int i : slice_dim (SInt i) = Ok 1.
Proof. reflexivity. Qed.

Lemma slice_dim_open_end a st : slice_dim (SSl a None st) = Err EValue.
Proof. reflexivity. Qed.

Definition mk (ab : Z * Z) : someslice := SSl (Some (fst ab)) (Some (snd ab)) None.

Lemma roi_shape_nd (ss : list (Z * Z)) :
  roi_shape (map mk ss) = Ok (map (fun ab => snd ab - fst ab) ss).
Proof.
  unfold roi_shape; induction ss as [|[a b] ss IH]; simpl; auto.
  simpl in IH; rewrite IH; reflexivity.
Qed.

Lemma roi_is_empty_nd (ss : list (Z * Z)) :
  roi_is_empty (map mk ss) = Ok (existsb (fun ab => snd ab - fst ab <=? 0) ss).
Proof.
  unfold roi_is_empty; rewrite roi_shape_nd; cbn [bind]; f_equal.
  induction ss as [|ab ss IH]; simpl; auto. rewrite IH; reflexivity.
Qed.

Lemma py_clamp_default n x d : 0 <= d <= n -> in_opt x d = true -> py_clamp n x d = d.
Proof.
  intros Hd. destruct x as [v|]; cbn [in_opt]; [|reflexivity].
  intros ->%Z.eqb_eq. apply py_clamp_in, Hd.
Qed.

Lemma slice_full_sound {A} (X : list A) a b st :
  slice_full (SSl a b st) (len X) = true -> np_get X (SSl a b None) = Some X.
Proof.
  pose proof (len_nonneg X) as Hn. unfold slice_full, np_get. intros [H1 H2]%andb_true_iff.
  rewrite (py_clamp_default _ a 0), (py_clamp_default _ b (len X)) by first [assumption | lia].
  cbn [stride]. f_equal. apply sel_full; lia.
Qed.

Lemma slice_full_int n i : slice_full (SInt i) n = (n =? 1).
Proof. reflexivity. Qed.

Lemma pad_slice_eq n pad a b st :
  0 <= a -> 0 <= b ->
  pad_slice pad (SSl (Some a) (Some b) st) n =
    SSl (Some (Z.max 0 (a - pad))) (Some (Z.min n (b + pad))) None.
Proof. intros; unfold pad_slice; rewrite norm_slice_in_range by lia; reflexivity. Qed.

Lemma align_down_eq x a : 0 < a -> align_down x a = a * (x / a).
Proof. intros; unfold align_down; pose proof (Z.div_mod x a ltac:(lia)); lia. Qed.

Lemma align_down_spec x a : 0 < a ->
  align_down x a mod a = 0 /\ align_down x a <= x /\ x - align_down x a < a.
Proof.
  intros Ha; split.
  - rewrite align_down_eq by lia. rewrite Z.mul_comm. apply Z.mod_mul; lia.
  - unfold align_down. pose proof (Z.mod_pos_bound x a Ha). lia.
Qed.

Lemma align_up_spec x a : 0 < a ->
  align_up x a mod a = 0 /\ x <= align_up x a /\ align_up x a - x < a.
Proof.
  intros Ha; unfold align_up.
  destruct (align_down_spec (x + (a - 1)) a Ha) as (H1 & H2 & H3). lia.
Qed.

Lemma align_down_1 x : align_down x 1 = x.
Proof. unfold align_down; rewrite Z.mod_1_r; lia. Qed.

Lemma align_up_1 x : align_up x 1 = x.
Proof. unfold align_up; rewrite align_down_1; lia. Qed.

Lemma align_up_div_mul x k : 0 < k -> align_up x k / k * k = align_up x k.
Proof.
  intros Hk. destruct (align_up_spec x k Hk) as (Hm & _ & _).
  apply Z.div_exact in Hm; lia.
Qed.

Lemma scaled_down_up_eq a b k : 0 < k ->
  scaled_up_slice (scaled_down_slice (a, b) k) k None = (align_down a k, align_up b k).
Proof.
  intros Hk; unfold scaled_up_slice, scaled_down_slice; cbn [fst snd].
  rewrite align_up_div_mul, align_down_eq by exact Hk. f_equal; lia.
Qed.

Lemma scaled_up_clamped a b k d :
  0 <= a <= b -> 1 <= k -> 0 <= d ->
  let u := scaled_up_slice (a, b) k (Some d) in
  0 <= fst u <= snd u /\ snd u <= d /\ fst u = Z.min d (a * k) /\ snd u = Z.min d (b * k).
Proof.
  intros Hab Hk Hd; unfold scaled_up_slice; cbn [fst snd].
  assert (a * k <= b * k) by nia. assert (0 <= a * k) by nia.
  repeat split; lia.
Qed.

Lemma scaled_down_dim_spec n k : 0 <= n -> 1 <= k ->
  let m := scaled_down_dim n k in n <= m * k /\ m * k - n < k.
Proof.
  intros Hn Hk; unfold scaled_down_dim; cbn zeta.
  rewrite align_up_div_mul by lia.
  destruct (align_up_spec n k ltac:(lia)) as (Hm & Hle & Hlt). lia.
Qed.
