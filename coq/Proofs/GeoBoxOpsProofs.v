(** Proofs about the GeoBox view operations (property C02).

    Every view of [g] has the affine [amul (g_A g) T] for a pixel-side map [T]
    ([view_at]), so its pixel [p] lies at pixel [apply T p] of [g]; the footprint
    inclusions come from a map between the two pixel rectangles ([covers_by_map]). *)
From Coq Require Import ZArith QArith Qround Qabs List Bool Lia Lqa.
From OG Require Import Base.Result Base.QZ Base.ListSel Base.Affine Model.Roi Model.GeoBoxOps
  Proofs.RoiProofs.
From OG Require Base.QMinMax Base.ZRange.
Import ListNotations.
Open Scope Q_scope.

Definition in_rect (g : geobox) (p : pt) : Prop :=
  0 <= fst p /\ fst p <= Zq (g_nx g) /\ 0 <= snd p /\ snd p <= Zq (g_ny g).
Definition footprint (g : geobox) (w : pt) : Prop := exists p, in_rect g p /\ peq (pix2wld g p) w.
Definition covers (g g' : geobox) : Prop := forall w, footprint g w -> footprint g' w.
Definition invertible (g : geobox) : Prop := ~ adet (g_A g) == 0.

Lemma Zq_plus a b : Zq (a + b) == Zq a + Zq b.
Proof. unfold Zq. rewrite inject_Z_plus. reflexivity. Qed.
Lemma Zq_mult a b : Zq (a * b) == Zq a * Zq b.
Proof. unfold Zq. rewrite inject_Z_mult. reflexivity. Qed.
Lemma Zq_opp a : Zq (- a) == - Zq a.
Proof. unfold Zq. rewrite inject_Z_opp. reflexivity. Qed.
Lemma Zq_le a b : (a <= b)%Z <-> Zq a <= Zq b.
Proof. unfold Zq. rewrite Zle_Qle. tauto. Qed.
Lemma Zq_ge0 n : (0 <= n)%Z -> 0 <= Zq n.
Proof. exact (proj1 (Zq_le 0 n)). Qed.
Lemma Zq_ge1 n : (1 <= n)%Z -> 1 <= Zq n.
Proof. exact (proj1 (Zq_le 1 n)). Qed.
Lemma Zq_lt a b : (a < b)%Z <-> Zq a < Zq b.
Proof. unfold Zq. rewrite Zlt_Qlt. tauto. Qed.

Lemma Qltb_true x y : Qltb x y = true <-> x < y.
Proof. exact (QMinMax.Qlt_bool_true x y). Qed.

Lemma Qltb_false x y : Qltb x y = false <-> y <= x.
Proof. exact (QMinMax.Qlt_bool_false x y). Qed.

Lemma Qdiv_div a b : ~ a == 0 -> ~ b == 0 -> a / (a / b) == b.
Proof. intros Ha Hb. field. split; assumption. Qed.

Lemma scale_range k x n m : 0 <= k -> 0 <= x <= n -> n * k <= m -> 0 <= x * k <= m.
Proof.
  intros Hk [H0 H1] Hm. split; [apply Qmult_le_0_compat; assumption|].
  apply Qle_trans with (n * k); [apply Qmult_le_compat_r; assumption | exact Hm].
Qed.

Lemma div_range x f n m : 0 < f -> 0 <= x <= n -> n / f <= m -> 0 <= x / f <= m.
Proof. intros Hf. apply scale_range, Qinv_le_0_compat, Qlt_le_weak, Hf. Qed.

Lemma mul_between a x n : 0 <= x <= n -> 0 <= x * a <= n * a \/ n * a <= x * a <= 0.
Proof.
  intros H. destruct (Qlt_le_dec a 0) as [Ha | Ha].
  - right. destruct (scale_range (- a) x n (n * - a)) as [H1 H2]; [lra | exact H | apply Qle_refl | lra].
  - left. apply scale_range with (n := n); [exact Ha | exact H | apply Qle_refl].
Qed.

Lemma view_at g ny nx T c p q :
  peq (apply T p) q -> peq (pix2wld (mkG ny nx (amul (g_A g) T) c) p) (pix2wld g q).
Proof.
  intros H. apply peq_trans with (apply (g_A g) (apply T p)); [apply apply_mul|].
  apply apply_Proper; [reflexivity | exact H].
Qed.

Global Instance pix2wld_Proper g : Proper (peq ==> peq) (pix2wld g).
Proof. intros p q H. unfold pix2wld. rewrite H. reflexivity. Qed.

Lemma covers_by_map (g g' : geobox) (f : pt -> pt) :
  (forall p, in_rect g p -> in_rect g' (f p) /\ peq (pix2wld g' (f p)) (pix2wld g p)) ->
  covers g g'.
Proof.
  intros H w (p & Hp & Hw). destruct (H p Hp) as [H1 H2].
  exists (f p); split; [exact H1 | rewrite H2; exact Hw].
Qed.

Lemma covers_scale g ny nx sx sy c : 0 < sx -> 0 < sy ->
  Zq (g_nx g) / sx <= Zq nx -> Zq (g_ny g) / sy <= Zq ny ->
  covers g (mkG ny nx (amul (g_A g) (ascale sx sy)) c).
Proof.
  intros Hx Hy Nx Ny. apply covers_by_map with (f := fun p => (fst p / sx, snd p / sy)).
  intros p (X0 & X1 & Y0 & Y1). split.
  - destruct (div_range (fst p) sx _ _ Hx (conj X0 X1) Nx), (div_range (snd p) sy _ _ Hy (conj Y0 Y1) Ny).
    repeat split; assumption.
  - apply view_at. rewrite apply_scale. split; cbn [fst snd]; apply Qmult_div_r; lra.
Qed.

Lemma covers_scale_inv g ny nx sx sy c : 0 <= sx -> 0 <= sy ->
  Zq nx * sx <= Zq (g_nx g) -> Zq ny * sy <= Zq (g_ny g) ->
  covers (mkG ny nx (amul (g_A g) (ascale sx sy)) c) g.
Proof.
  intros Hx Hy Nx Ny. apply covers_by_map with (f := fun p => (fst p * sx, snd p * sy)).
  intros p (X0 & X1 & Y0 & Y1). split.
  - destruct (scale_range sx (fst p) _ _ Hx (conj X0 X1) Nx), (scale_range sy (snd p) _ _ Hy (conj Y0 Y1) Ny).
    repeat split; assumption.
  - symmetry. apply view_at. rewrite apply_scale. split; apply Qmult_comm.
Qed.

Lemma roundtrip g p : invertible g ->
  peq (wld2pix g (pix2wld g p)) p /\ peq (pix2wld g (wld2pix g p)) p.
Proof.
  intros H; split; [apply apply_inv_l | apply apply_inv_r]; exact H.
Qed.

Lemma pix2wld_injective g p q : invertible g -> peq (pix2wld g p) (pix2wld g q) -> peq p q.
Proof. intros H E. eapply apply_inj; eauto. Qed.

Definition hull4 (c1 c2 c3 c4 : pt) (w : pt) : Prop :=
  exists w1 w2 w3 w4, 0 <= w1 /\ 0 <= w2 /\ 0 <= w3 /\ 0 <= w4 /\ w1 + w2 + w3 + w4 == 1 /\
    peq w (w1 * fst c1 + w2 * fst c2 + w3 * fst c3 + w4 * fst c4,
           w1 * snd c1 + w2 * snd c2 + w3 * snd c3 + w4 * snd c4).

Lemma footprint_in_hull g w : (1 <= g_nx g)%Z -> (1 <= g_ny g)%Z ->
  footprint g w ->
  hull4 (pix2wld g (0, 0)) (pix2wld g (0, Zq (g_ny g))) (pix2wld g (Zq (g_nx g), Zq (g_ny g)))
        (pix2wld g (Zq (g_nx g), 0)) w.
Proof.
  intros Hx Hy ([x y] & (X0 & X1 & Y0 & Y1) & Hw). cbn [fst snd] in *.
  apply Zq_ge1 in Hx, Hy.
  set (nx := Zq (g_nx g)) in *. set (ny := Zq (g_ny g)) in *.
  destruct (div_range x nx nx 1) as [Hu0 Hu1]; [lra | split; assumption | apply Qle_shift_div_r; lra |].
  destruct (div_range y ny ny 1) as [Hv0 Hv1]; [lra | split; assumption | apply Qle_shift_div_r; lra |].
  set (u := x / nx) in *. set (v := y / ny) in *.
  assert (Ex : x == u * nx) by (unfold u; field; lra).
  assert (Ey : y == v * ny) by (unfold v; field; lra).
  (* the bilinear weights of (x, y) = (u nx, v ny) *)
  exists ((1 - u) * (1 - v)), ((1 - u) * v), (u * v), (u * (1 - v)).
  do 4 (split; [apply Qmult_le_0_compat; lra|]). split; [ring|].
  rewrite <- Hw. unfold pix2wld. rewrite <- apply_combination by ring.
  apply apply_Proper; [reflexivity|]. split; cbn [fst snd]; [rewrite Ex at 1 | rewrite Ey at 1]; ring.
Qed.

Lemma hull_in_footprint g w : (0 <= g_nx g)%Z -> (0 <= g_ny g)%Z ->
  hull4 (pix2wld g (0, 0)) (pix2wld g (0, Zq (g_ny g))) (pix2wld g (Zq (g_nx g), Zq (g_ny g)))
        (pix2wld g (Zq (g_nx g), 0)) w ->
  footprint g w.
Proof.
  intros Hx Hy (w1 & w2 & w3 & w4 & P1 & P2 & P3 & P4 & S & E).
  apply Zq_ge0 in Hx, Hy.
  set (nx := Zq (g_nx g)) in *. set (ny := Zq (g_ny g)) in *.
  exists (w1 * 0 + w2 * 0 + w3 * nx + w4 * nx, w1 * 0 + w2 * ny + w3 * ny + w4 * 0). split.
  - pose proof (scale_range nx (w3 + w4) 1 nx Hx). pose proof (scale_range ny (w2 + w3) 1 ny Hy).
    unfold in_rect; cbn [fst snd]. fold nx ny. lra.
  - (* an affine map sends the convex combination of the corners to that of their images *)
    rewrite E. apply (apply_combination (g_A g) w1 w2 w3 w4 (0, 0) (0, ny) (nx, ny) (nx, 0) S).
Qed.

Lemma minmax_of_points p ps l b r t :
  (qmin_list (fst p) (map fst ps), qmin_list (snd p) (map snd ps),
   qmax_list (fst p) (map fst ps), qmax_list (snd p) (map snd ps)) = (l, b, r, t) ->
  (forall c, In c (p :: ps) -> l <= fst c /\ fst c <= r /\ b <= snd c /\ snd c <= t) /\
  (exists c, In c (p :: ps) /\ l = fst c) /\ (exists c, In c (p :: ps) /\ b = snd c) /\
  (exists c, In c (p :: ps) /\ r = fst c) /\ (exists c, In c (p :: ps) /\ t = snd c).
Proof.
  intros H; injection H as <- <- <- <-.
  pose proof (fun pr : pt -> Q => fold_left_sel_map Qle qmin Qle_trans QMinMax.qmin_case pr ps p) as Lo.
  pose proof (fun pr : pt -> Q =>
                fold_left_sel_map (fun a b => b <= a) qmax QMinMax.Qge_trans QMinMax.qmax_case pr ps p) as Hi.
  destruct (Lo fst) as [El Ll], (Lo snd) as [Eb Lb], (Hi fst) as [Er Lr], (Hi snd) as [Et Lt].
  split; [intros c Hc; auto | exact (conj El (conj Eb (conj Er Et)))].
Qed.

Definition corner_images (g : geobox) : list pt :=
  [pix2wld g (0, 0); pix2wld g (Zq (g_nx g), 0); pix2wld g (Zq (g_nx g), Zq (g_ny g));
   pix2wld g (0, Zq (g_ny g))].

Lemma linear_on_rect (a b c x y nx ny lo hi : Q) :
  0 <= x <= nx -> 0 <= y <= ny ->
  lo <= c -> lo <= a * nx + c -> lo <= a * nx + b * ny + c -> lo <= b * ny + c ->
  c <= hi -> a * nx + c <= hi -> a * nx + b * ny + c <= hi -> b * ny + c <= hi ->
  lo <= a * x + b * y + c /\ a * x + b * y + c <= hi.
Proof.
  intros X Y L1 L2 L3 L4 H1 H2 H3 H4.
  destruct (mul_between a x nx X) as [[? ?] | [? ?]], (mul_between b y ny Y) as [[? ?] | [? ?]];
    split; lra.
Qed.

Lemma boundingbox_contains g l b r t p : boundingbox g = (l, b, r, t) -> in_rect g p ->
  l <= fst (pix2wld g p) /\ fst (pix2wld g p) <= r /\ b <= snd (pix2wld g p) /\ snd (pix2wld g p) <= t.
Proof.
  intros Hb (X0 & X1 & Y0 & Y1).
  destruct (minmax_of_points (pix2wld g (0, 0)) (tl (corner_images g)) l b r t Hb) as (Hc & _).
  pose proof (Hc _ (or_introl eq_refl)) as C1.
  pose proof (Hc _ (or_intror (or_introl eq_refl))) as C2.
  pose proof (Hc _ (or_intror (or_intror (or_introl eq_refl)))) as C3.
  pose proof (Hc _ (or_intror (or_intror (or_intror (or_introl eq_refl))))) as C4.
  unfold pix2wld, apply in *; cbn [fst snd] in *.
  set (nx := Zq (g_nx g)) in *. set (ny := Zq (g_ny g)) in *.
  destruct (linear_on_rect (aa (g_A g)) (ab (g_A g)) (ac (g_A g)) (fst p) (snd p) nx ny l r); [lra ..|].
  destruct (linear_on_rect (ad (g_A g)) (ae (g_A g)) (af (g_A g)) (fst p) (snd p) nx ny b t); [lra ..|].
  tauto.
Qed.

Lemma map_iota_nth (f : Z -> Q) n i d : (0 <= i < n)%Z ->
  nth (Z.to_nat i) (map f (iota n)) d = f i.
Proof.
  intros H. apply nth_error_nth.
  rewrite (map_nth_error f _ (iota n) (ZRange.nth_error_iota n (Z.to_nat i) ltac:(lia))), Z2Nat.id by lia.
  reflexivity.
Qed.

Definition axis_aligned (g : geobox) : Prop := ab (g_A g) == 0 /\ ad (g_A g) == 0.

Lemma is_affine_st_true c A : 0 < tol_st c -> ab A == 0 -> ad A == 0 -> is_affine_st c A = true.
Proof.
  intros Ht Hb Hd. unfold is_affine_st.
  rewrite (proj2 (Qltb_true (Qabs (ab A)) _)), (proj2 (Qltb_true (Qabs (ad A)) _));
    [reflexivity | rewrite Hd; exact Ht | rewrite Hb; exact Ht].
Qed.

Lemma coordinates_labels c g : 0 < tol_st c -> axis_aligned g ->
  exists xs ys, coordinates c g = Ok (xs, ys) /\
    length xs = Z.to_nat (g_nx g) /\ length ys = Z.to_nat (g_ny g) /\
    (forall i y, (0 <= i < g_nx g)%Z ->
       nth (Z.to_nat i) xs 0 == fst (pix2wld g (Zq i + (1 # 2), y))) /\
    (forall j x, (0 <= j < g_ny g)%Z ->
       nth (Z.to_nat j) ys 0 == snd (pix2wld g (x, Zq j + (1 # 2)))).
Proof.
  intros Ht [Hb Hd]. unfold coordinates. rewrite (is_affine_st_true c _ Ht Hb Hd).
  eexists _, _; split; [reflexivity|].
  split; [rewrite map_length; apply ZRange.length_iota|].
  split; [rewrite map_length; apply ZRange.length_iota|].
  split.
  - intros i y Hi. rewrite map_iota_nth by assumption.
    unfold pix2wld, apply; simpl. rewrite Hb. field.
  - intros j x Hj. rewrite map_iota_nth by assumption.
    unfold pix2wld, apply; simpl. rewrite Hd. field.
Qed.

Lemma resolution_root_spec A l : 0 < l -> l * l == aa A * aa A + ad A * ad A ->
  let '(rx, ry) := resolution_with_root A l in
  rx * rx == aa A * aa A + ad A * ad A /\ 0 < rx /\
  rx * ry == adet A /\
  (0 < ry <-> 0 < adet A) /\ (ry == 0 <-> adet A == 0) /\
  (aa A * ab A + ad A * ae A == 0 -> ry * ry == ab A * ab A + ae A * ae A).
Proof.
  intros Hl Hll. unfold resolution_with_root.
  assert (Hl0 : ~ l == 0) by lra.
  assert (E : l * (adet A / l) == adet A) by (apply Qmult_div_r, Hl0).
  split; [exact Hll|]. split; [exact Hl|]. split; [exact E|].
  assert (Hil : 0 < / l) by (apply Qinv_lt_0_compat; exact Hl).
  split; [|split].
  - split; intros H.
    + rewrite <- E. apply Qmult_lt_0_compat; assumption.
    + unfold Qdiv. apply Qmult_lt_0_compat; assumption.
  - split; intros H.
    + rewrite <- E, H. ring.
    + unfold Qdiv. rewrite H. ring.
  - intros Ho.
    assert (E2 : (adet A / l) * (adet A / l) == adet A * adet A / (l * l)) by (field; exact Hl0).
    rewrite E2, Hll.
    assert (Hn : ~ aa A * aa A + ad A * ad A == 0) by (rewrite <- Hll; intros C; nra).
    (* Lagrange's identity *)
    assert (E3 : adet A * adet A ==
                 (aa A * aa A + ad A * ad A) * (ab A * ab A + ae A * ae A)
                 - (aa A * ab A + ad A * ae A) * (aa A * ab A + ad A * ae A))
      by (unfold adet; ring).
    rewrite E3, Ho. field. exact Hn.
Qed.

Lemma exact_sqrt_sound q l : exact_sqrt q = Some l -> l * l == q /\ 0 <= l.
Proof.
  unfold exact_sqrt. destruct (_ && _) eqn:E; [|discriminate]. intros [= <-].
  rewrite !andb_true_iff, !Z.eqb_eq in E. destruct E as [[En Ed] _].
  apply and_comm. exact (Qsqrt_red q _ _ (Z.sqrt_nonneg _) (Z.sqrt_nonneg _) En Ed).
Qed.

Lemma resolution_rotated c g rx ry : is_affine_st c (g_A g) = false ->
  resolution c g = Ok (rx, ry) ->
  rx * rx == aa (g_A g) * aa (g_A g) + ad (g_A g) * ad (g_A g) /\ 0 < rx /\
  rx * ry == adet (g_A g) /\ (0 < ry <-> 0 < adet (g_A g)) /\
  (aa (g_A g) * ab (g_A g) + ad (g_A g) * ae (g_A g) == 0 ->
     ry * ry == ab (g_A g) * ab (g_A g) + ae (g_A g) * ae (g_A g)).
Proof.
  intros Hst. unfold resolution. rewrite Hst.
  destruct (exact_sqrt _) as [l|] eqn:Es; [|discriminate].
  destruct (Qeq_bool l 0) eqn:E0; [discriminate|]. apply Qeq_bool_neq in E0.
  intros H; injection H as <- <-.
  destruct (exact_sqrt_sound _ _ Es) as [Hll Hl].
  assert (Hlp : 0 < l) by lra.
  pose proof (resolution_root_spec (g_A g) l Hlp Hll) as S.
  destruct S as (S1 & S2 & S3 & S4 & _ & S6). exact (conj S1 (conj S2 (conj S3 (conj S4 S6)))).
Qed.

Definition same_tags (g g' : geobox) : Prop :=
  g_ny g' = g_ny g /\ g_nx g' = g_nx g /\ g_crs g' = g_crs g.

Lemma translate_pix_at g tx ty p :
  peq (pix2wld (translate_pix g tx ty) p) (pix2wld g (fst p + tx, snd p + ty)).
Proof. apply view_at, apply_trans. Qed.

Lemma pad_contract g padx pady p :
  let py := fill pady padx in
  let g' := pad g padx pady in
  peq (pix2wld g' p) (pix2wld g (fst p - Zq padx, snd p - Zq py)) /\
  g_ny g' = (g_ny g + py * 2)%Z /\ g_nx g' = (g_nx g + padx * 2)%Z /\ g_crs g' = g_crs g.
Proof.
  cbv zeta. split; [|repeat split].
  apply view_at. rewrite apply_trans. split; cbn [fst snd]; rewrite Zq_opp; reflexivity.
Qed.

Lemma pad_covers g padx pady : (0 <= padx)%Z -> (0 <= fill pady padx)%Z -> covers g (pad g padx pady).
Proof.
  intros Hx Hy.
  apply covers_by_map with (f := fun p => (fst p + Zq padx, snd p + Zq (fill pady padx))).
  intros p (X0 & X1 & Y0 & Y1). apply Zq_ge0 in Hx, Hy. split.
  - unfold in_rect, pad; cbn [g_ny g_nx fst snd]. rewrite !Zq_plus, !Zq_mult. change (Zq 2) with 2.
    repeat split; lra.
  - apply view_at. rewrite apply_trans. split; cbn [fst snd]; rewrite Zq_opp; ring.
Qed.

Lemma pad_wh_contract g ax ay : (1 <= ax)%Z -> (1 <= fill ay ax)%Z ->
  let g' := pad_wh g ax ay in
  g_A g' = g_A g /\ g_crs g' = g_crs g /\
  (g_nx g <= g_nx g' < g_nx g + ax)%Z /\ (g_nx g' mod ax = 0)%Z /\
  (g_ny g <= g_ny g' < g_ny g + fill ay ax)%Z /\ (g_ny g' mod (fill ay ax) = 0)%Z /\
  covers g g'.
Proof.
  intros Hx Hy. cbv zeta. unfold pad_wh; cbn [g_A g_ny g_nx g_crs].
  destruct (align_up_spec (g_nx g) ax ltac:(lia)) as (X1 & X2 & X3).
  destruct (align_up_spec (g_ny g) (fill ay ax) ltac:(lia)) as (Y1 & Y2 & Y3).
  split; [reflexivity|]. split; [reflexivity|]. split; [lia|]. split; [exact X1|].
  split; [lia|]. split; [exact Y1|].
  apply covers_by_map with (f := fun p => p).
  intros p (A0 & A1 & B0 & B1). split; [|reflexivity].
  unfold in_rect; cbn [g_ny g_nx]. apply Zq_le in X2, Y2. repeat split; lra.
Qed.

Lemma flipx_map n p : peq (apply (amul (atrans n 0) (ascale (-1) 1)) p) (n - fst p, snd p).
Proof. unfold apply, amul, atrans, ascale, peq; cbn [aa ab ac ad ae af fst snd]. split; ring. Qed.

Lemma flipy_map n p : peq (apply (amul (atrans 0 n) (ascale 1 (-1))) p) (fst p, n - snd p).
Proof. unfold apply, amul, atrans, ascale, peq; cbn [aa ab ac ad ae af fst snd]. split; ring. Qed.

Lemma flipx_contract g p :
  peq (pix2wld (flipx g) p) (pix2wld g (Zq (g_nx g) - fst p, snd p)) /\ same_tags g (flipx g).
Proof. split; [apply view_at, flipx_map | repeat split]. Qed.

Lemma flipy_contract g p :
  peq (pix2wld (flipy g) p) (pix2wld g (fst p, Zq (g_ny g) - snd p)) /\ same_tags g (flipy g).
Proof. split; [apply view_at, flipy_map | repeat split]. Qed.

Lemma gmul_involution g T f :
  (forall p, peq (apply T p) (f p)) -> (forall p, peq (f (f p)) p) ->
  (forall p, in_rect g p -> in_rect g (f p)) ->
  aeq (g_A (gmul (gmul g T) T)) (g_A g) /\ covers g (gmul g T) /\ covers (gmul g T) g.
Proof.
  intros HT Hf Hr.
  assert (HTT : forall p, peq (apply T (apply T p)) p) by (intros p; rewrite (HT p), HT; apply Hf).
  split; [|split].
  - apply aeq_ext. intros p. cbn [gmul g_A]. rewrite !apply_mul, HTT. reflexivity.
  - apply covers_by_map with (f := f). intros p Hp. split; [exact (Hr p Hp)|].
    rewrite <- (HT p). unfold pix2wld; cbn [gmul g_A]. rewrite apply_mul, HTT. reflexivity.
  - apply covers_by_map with (f := f). intros p Hp. split; [exact (Hr p Hp)|].
    symmetry. apply view_at, HT.
Qed.

Lemma flipx_involution g :
  aeq (g_A (flipx (flipx g))) (g_A g) /\ covers g (flipx g) /\ covers (flipx g) g.
Proof.
  apply gmul_involution with (f := fun p => (Zq (g_nx g) - fst p, snd p)); [apply flipx_map | |].
  - intros p. split; cbn [fst snd]; ring.
  - unfold in_rect; cbn [fst snd]. intros p H. lra.
Qed.

Lemma flipy_involution g :
  aeq (g_A (flipy (flipy g))) (g_A g) /\ covers g (flipy g) /\ covers (flipy g) g.
Proof.
  apply gmul_involution with (f := fun p => (fst p, Zq (g_ny g) - snd p)); [apply flipy_map | |].
  - intros p. split; cbn [fst snd]; ring.
  - unfold in_rect; cbn [fst snd]. intros p H. lra.
Qed.

Lemma translate_back A tx ty tx' ty' : tx + tx' == 0 -> ty + ty' == 0 ->
  aeq (amul (amul A (atrans tx ty)) (atrans tx' ty')) A.
Proof.
  intros Hx Hy. apply aeq_ext. intros p. rewrite !apply_mul. apply apply_Proper; [reflexivity|].
  unfold apply, atrans, peq; cbn [aa ab ac ad ae af fst snd]. split; lra.
Qed.

Lemma rotate_contract g c s p :
  let C := center_world g in
  let g' := rotate g c s in
  peq (pix2wld g' p)
      (fst C + (c * (fst (pix2wld g p) - fst C) - s * (snd (pix2wld g p) - snd C)),
       snd C + (s * (fst (pix2wld g p) - fst C) + c * (snd (pix2wld g p) - snd C))) /\
  peq (pix2wld g' (Zq (g_nx g) * (1 # 2), Zq (g_ny g) * (1 # 2))) C /\
  same_tags g g' /\
  adet (g_A g') == (c * c + s * s) * adet (g_A g).
Proof.
  cbv zeta. unfold rotate, grmul, pix2wld; cbn [g_A]. split; [|split; [|split]].
  - rewrite apply_mul. apply arot_about_disp.
  - rewrite apply_mul. apply arot_about_fix.
  - repeat split.
  - rewrite adet_mul, adet_rot_about. reflexivity.
Qed.

Definition dist2 (u v : pt) : Q := (fst u - fst v) * (fst u - fst v) + (snd u - snd v) * (snd u - snd v).

Lemma rotate_isometry g c s p q : c * c + s * s == 1 ->
  dist2 (pix2wld (rotate g c s) p) (pix2wld (rotate g c s) q) == dist2 (pix2wld g p) (pix2wld g q).
Proof.
  intros H.
  destruct (rotate_contract g c s p) as ([P1 P2] & _).
  destruct (rotate_contract g c s q) as ([Q1 Q2] & _).
  unfold dist2. rewrite P1, P2, Q1, Q2. cbn [fst snd].
  set (x1 := fst (pix2wld g p)). set (y1 := snd (pix2wld g p)).
  set (x2 := fst (pix2wld g q)). set (y2 := snd (pix2wld g q)).
  set (cx := fst (center_world g)). set (cy := snd (center_world g)).
  transitivity ((c * c + s * s) * ((x1 - x2) * (x1 - x2) + (y1 - y2) * (y1 - y2))); [ring|].
  rewrite H. ring.
Qed.

Lemma getitem_tup_eq g sy sx : getitem g (RTup [sy; sx]) =
  let '(y0, y1, sty) := norm_bounds sy (g_ny g) in
  let '(x0, x1, stx) := norm_bounds sx (g_nx g) in
  if step_supported sty && step_supported stx
  then Ok (mkG (y1 - y0) (x1 - x0) (amul (g_A g) (atrans (Zq x0) (Zq y0))) (g_crs g))
  else Err EOther.
Proof.
  unfold getitem, compute_crop. cbn [length zip_norm].
  destruct (norm_bounds sy (g_ny g)) as [[y0 y1] sty], (norm_bounds sx (g_nx g)) as [[x0 x1] stx].
  cbn [forallb snd]. rewrite andb_true_r.
  destruct (step_supported sty && step_supported stx); reflexivity.
Qed.

Lemma getitem_tup_contract g sy sx g' : getitem g (RTup [sy; sx]) = Ok g' ->
  let '(y0, y1, _) := norm_bounds sy (g_ny g) in
  let '(x0, x1, _) := norm_bounds sx (g_nx g) in
  g_ny g' = (y1 - y0)%Z /\ g_nx g' = (x1 - x0)%Z /\ g_crs g' = g_crs g /\
  forall p, peq (pix2wld g' p) (pix2wld g (fst p + Zq x0, snd p + Zq y0)).
Proof.
  rewrite getitem_tup_eq.
  destruct (norm_bounds sy (g_ny g)) as [[y0 y1] sty], (norm_bounds sx (g_nx g)) as [[x0 x1] stx].
  destruct (step_supported sty && step_supported stx); [|discriminate].
  intros H; injection H as <-.
  split; [reflexivity|]. split; [reflexivity|]. split; [reflexivity|].
  intros p. apply view_at, apply_trans.
Qed.

Lemma getitem_bad_rank g l : (2 < Z.of_nat (length l))%Z -> getitem g (RTup l) = Err EValue.
Proof.
  intros H. unfold getitem, compute_crop. apply Z.ltb_lt in H. rewrite H. reflexivity.
Qed.

Lemma wrap_index n i : (- n <= i < n)%Z -> (if (i <? 0)%Z then (n + i)%Z else i) = (i mod n)%Z.
Proof.
  intros H. destruct (i <? 0)%Z eqn:E.
  - apply Z.ltb_lt in E. apply Z.mod_unique with (q := (-1)%Z); lia.
  - apply Z.ltb_ge in E. symmetry. apply Z.mod_small. lia.
Qed.

Lemma norm_bounds_int i n : (- n <= i < n)%Z ->
  norm_bounds (SInt i) n = ((i mod n)%Z, (i mod n + 1)%Z, None).
Proof. intros H. unfold norm_bounds, norm_slice. rewrite (wrap_index n i H). reflexivity. Qed.

Lemma norm_bounds_full n : (0 <= n)%Z -> norm_bounds full_slice n = (0%Z, n, None).
Proof.
  intros H. unfold norm_bounds, full_slice, norm_slice, wrap_neg, fill.
  destruct (n >=? 0)%Z eqn:E; [reflexivity | lia].
Qed.

Lemma stride_supported {A} st (l : list A) : step_supported st = true -> stride st l = l.
Proof.
  destruct st as [k|]; [|reflexivity]. cbn [step_supported]. intros ->%Z.eqb_eq.
  unfold stride. change (Z.to_nat 1) with 1%nat.
  induction l as [|x xs IH]; [reflexivity|]. cbn. f_equal. exact IH.
Qed.

Lemma norm_bounds_selection {A} (X : list A) a b st : step_supported st = true ->
  let '(s, e, _) := norm_bounds (SSl a b st) (len X) in
  (0 <= s)%Z /\ (0 <= e)%Z /\ np_get X (SSl a b st) = Some (sel X s e) /\
  ((s <= e)%Z -> (e <= len X)%Z -> len (sel X s e) = (e - s)%Z).
Proof.
  intros Hst. rewrite <- (norm_slice_same_selection X a b st).
  unfold norm_bounds, norm_slice.
  pose proof (wrap_neg_nonneg (len X) (fill a 0)) as Hs.
  pose proof (wrap_neg_nonneg (len X) (fill b (len X))) as He.
  set (s := wrap_neg (len X) (fill a 0)) in *. set (e := wrap_neg (len X) (fill b (len X))) in *.
  split; [exact Hs|]. split; [exact He|]. split.
  - unfold np_get. rewrite !py_clamp_nonneg, <- sel_clamp, stride_supported by assumption.
    reflexivity.
  - intros H1 H2. rewrite len_sel by assumption. lia.
Qed.

Lemma norm_bounds_int_selection {A} (X : list A) i : (- len X <= i < len X)%Z ->
  np_get X (SInt i) = Some (sel X (i mod len X) (i mod len X + 1)) /\
  len (sel X (i mod len X) (i mod len X + 1)) = 1%Z.
Proof.
  intros H. pose proof (Z.mod_pos_bound i (len X) ltac:(lia)) as Hm. split.
  - unfold np_get. rewrite (Z.add_comm i), (wrap_index _ i H).
    rewrite (proj2 (Z.leb_le _ _) (proj1 H)), (proj2 (Z.ltb_lt _ _) (proj2 H)). reflexivity.
  - rewrite len_sel by lia. lia.
Qed.

(** the behaviour before the F18 repair, kept as a refuted statement: an int index
    [i] was turned into [slice(i, i+1)] *)
Definition getitem_int_before_fix (g : geobox) (i : Z) : res geobox :=
  getitem g (RTup [SSl (Some i) (Some (i + 1)%Z) None; full_slice]).

Lemma half_index n : (1 <= n)%Z -> (0 <= n / 2 < n)%Z.
Proof. intros H. split; [apply Z.div_pos | apply Z.div_lt]; lia. Qed.

Lemma half_bounds n : Zq (n / 2) <= Zq n * (1 # 2) <= Zq (n / 2) + 1.
Proof.
  pose proof (Z.div_mod n 2 ltac:(lia)) as D. pose proof (Z.mod_pos_bound n 2 ltac:(lia)) as B.
  assert (E : Zq n == 2 * Zq (n / 2) + Zq (n mod 2)) by (rewrite D at 1; rewrite Zq_plus, Zq_mult; reflexivity).
  assert (R0 : Zq 0 <= Zq (n mod 2)) by (apply -> Zq_le; lia).
  assert (R1 : Zq (n mod 2) <= Zq 1) by (apply -> Zq_le; lia).
  change (Zq 0) with 0 in R0. change (Zq 1) with 1 in R1. lra.
Qed.

Lemma Qeq_bool_false_nz x : ~ x == 0 -> Qeq_bool x 0 = false.
Proof. exact (Qeq_bool_false x 0). Qed.

Lemma zoom_dim_pos n f : (1 <= zoom_dim n f)%Z.
Proof. apply Z.le_max_l. Qed.

Lemma zoom_dim_ge n f : Zq n / f <= Zq (zoom_dim n f).
Proof.
  apply Qle_trans with (Zq (Qceiling (Zq n / f))); [apply Qle_ceiling | apply -> Zq_le; apply Z.le_max_r].
Qed.

Lemma zoom_dim_tight n f : Zq (zoom_dim n f) < Zq n / f + 1 \/ zoom_dim n f = 1%Z.
Proof.
  unfold zoom_dim. destruct (Z.max_spec 1 (Qceiling (Zq n / f))) as [[_ ->] | [_ ->]]; [left | right; reflexivity].
  destruct (Qceiling_spec (Zq n / f)) as (c & -> & H & _). unfold Zq at 1. lra.
Qed.

Lemma zoom_dim_max a b f : 0 < f -> Z.max (zoom_dim a f) (zoom_dim b f) = zoom_dim (Z.max a b) f.
Proof.
  intros Hf. apply (Z.max_mono (fun n => zoom_dim n f)); [intros x y ->; reflexivity|].
  intros x y H. apply Z.max_le_compat_l, Qceiling_resp_le, Qmult_le_compat_r;
    [apply -> Zq_le; exact H | apply Qlt_le_weak, Qinv_lt_0_compat, Hf].
Qed.

Lemma zoom_dim_exact m k : (1 <= m)%Z -> (1 <= k)%Z -> zoom_dim m (Zq m / Zq k) = k.
Proof.
  intros Hm Hk. apply Zq_ge1 in Hm as Hm', Hk as Hk'.
  unfold zoom_dim. rewrite Qdiv_div by lra. unfold Zq. rewrite Qceiling_Z. lia.
Qed.

Lemma zoom_out_contract g f : 0 < f ->
  exists g', zoom_out g f = Ok g' /\
    g_ny g' = zoom_dim (g_ny g) f /\ g_nx g' = zoom_dim (g_nx g) f /\ g_crs g' = g_crs g /\
    (forall p, peq (pix2wld g' p) (pix2wld g (f * fst p, f * snd p))) /\
    covers g g'.
Proof.
  intros Hf. unfold zoom_out. rewrite (Qeq_bool_false f 0) by lra.
  eexists; split; [reflexivity|]. cbn [g_ny g_nx g_crs].
  split; [reflexivity|]. split; [reflexivity|]. split; [reflexivity|]. split.
  - intros p. apply view_at, apply_scale.
  - apply covers_scale; [exact Hf | exact Hf | apply zoom_dim_ge | apply zoom_dim_ge].
Qed.

Lemma zoom_to_shape_contract g ny nx : (1 <= ny)%Z -> (1 <= nx)%Z ->
  exists g', zoom_to_shape g ny nx = Ok g' /\
    g_ny g' = ny /\ g_nx g' = nx /\ g_crs g' = g_crs g /\
    (forall p, peq (pix2wld g' p)
                   (pix2wld g (fst p * (Zq (g_nx g) / Zq nx), snd p * (Zq (g_ny g) / Zq ny)))) /\
    peq (pix2wld g' (Zq nx, Zq ny)) (pix2wld g (Zq (g_nx g), Zq (g_ny g))) /\
    ((0 <= g_ny g)%Z -> (0 <= g_nx g)%Z -> covers g' g) /\
    ((1 <= g_ny g)%Z -> (1 <= g_nx g)%Z -> covers g g').
Proof.
  intros Hy Hx. unfold zoom_to_shape.
  rewrite (proj2 (Z.eqb_neq ny 0)), (proj2 (Z.eqb_neq nx 0)) by lia.
  cbn [orb]. eexists; split; [reflexivity|]. cbn [g_ny g_nx g_crs].
  apply Zq_ge1 in Hy, Hx.
  split; [reflexivity|]. split; [reflexivity|]. split; [reflexivity|].
  split; [|split; [|split]].
  - intros p. apply view_at. rewrite apply_scale. split; apply Qmult_comm.
  - apply view_at. rewrite apply_scale. split; cbn [fst snd]; rewrite Qmult_comm; apply Qmult_div_r; lra.
  - intros Gy Gx. apply Zq_ge0 in Gy, Gx. apply covers_scale_inv.
    1-2: apply Qle_shift_div_l; lra.
    all: rewrite Qmult_div_r by lra; apply Qle_refl.
  - intros Gy Gx. apply Zq_ge1 in Gy, Gx. apply covers_scale.
    1-2: apply Qlt_shift_div_l; lra.
    all: rewrite Qdiv_div by lra; apply Qle_refl.
Qed.

Lemma zoom_to_n_contract g k : (1 <= k)%Z -> (1 <= Z.max (g_ny g) (g_nx g))%Z ->
  let f := Zq (Z.max (g_ny g) (g_nx g)) / Zq k in
  0 < f /\ zoom_to_n g (Zq k) = zoom_out g f /\
  exists g', zoom_to_n g (Zq k) = Ok g' /\ Z.max (g_ny g') (g_nx g') = k.
Proof.
  intros Hk Hm. cbv zeta. set (m := Z.max (g_ny g) (g_nx g)) in *.
  apply Zq_ge1 in Hk as Hk', Hm as Hm'.
  assert (Hf : 0 < Zq m / Zq k) by (apply Qlt_shift_div_l; lra).
  assert (E : zoom_to_n g (Zq k) = zoom_out g (Zq m / Zq k))
    by (unfold zoom_to_n; rewrite (Qeq_bool_false _ 0) by lra; reflexivity).
  split; [exact Hf|]. split; [exact E|].
  destruct (zoom_out_contract g _ Hf) as (g' & Hg & Sy & Sx & _).
  exists g'. split; [rewrite E; exact Hg|].
  rewrite Sy, Sx, (zoom_dim_max _ _ _ Hf). apply zoom_dim_exact; assumption.
Qed.

Lemma scaled_dim_spec n s : (1 < s)%Z -> (0 <= n)%Z ->
  (n <= s * scaled_dim n s < n + s)%Z /\ (0 <= scaled_dim n s)%Z.
Proof.
  intros Hs Hn. unfold scaled_dim.
  pose proof (Z.div_mod n s ltac:(lia)) as D. pose proof (Z.mod_pos_bound n s ltac:(lia)) as B.
  assert (Q0 : (0 <= n / s)%Z) by (apply Z.div_pos; lia).
  destruct (n mod s =? 0)%Z eqn:E; [apply Z.eqb_eq in E | apply Z.eqb_neq in E]; nia.
Qed.

Lemma scaled_down_contract g s : (1 < s)%Z ->
  exists g', scaled_down_geobox g s = Ok g' /\
    g_ny g' = scaled_dim (g_ny g) s /\ g_nx g' = scaled_dim (g_nx g) s /\ g_crs g' = g_crs g /\
    (forall p, peq (pix2wld g' p) (pix2wld g (Zq s * fst p, Zq s * snd p))) /\
    ((0 <= g_ny g)%Z -> (0 <= g_nx g)%Z -> covers g g').
Proof.
  intros Hs. unfold scaled_down_geobox. rewrite (proj2 (Z.gtb_lt s 1) Hs).
  eexists; split; [reflexivity|]. cbn [g_ny g_nx g_crs].
  split; [reflexivity|]. split; [reflexivity|]. split; [reflexivity|]. split.
  - intros p. apply view_at, apply_scale.
  - intros Gy Gx.
    destruct (scaled_dim_spec (g_ny g) s Hs Gy) as ([Y1 _] & _).
    destruct (scaled_dim_spec (g_nx g) s Hs Gx) as ([X1 _] & _).
    apply Zq_le in Y1, X1. rewrite Zq_mult, Qmult_comm in Y1, X1.
    assert (Hs' : 0 < Zq s) by (apply -> (Zq_lt 0); lia).
    apply covers_scale; [exact Hs' | exact Hs' | |]; apply Qle_shift_div_r; assumption.
Qed.

Lemma round_to_res_spec c v r : ~ r == 0 ->
  let b := round_to_res c v r in
  v - tenth c * Qabs r <= Zq b * Qabs r /\ (Zq b - 1) * Qabs r < v - tenth c * Qabs r.
Proof.
  intros Hr. cbv zeta. unfold round_to_res.
  pose proof (Qabs_nonzero r Hr) as HR. set (R := Qabs r) in *.
  destruct (Qceiling_spec ((v - tenth c * R) / R)) as (k & Ek & H1 & H2).
  unfold Zq. rewrite <- Ek.
  assert (E : (v - tenth c * R) / R * R == v - tenth c * R) by (field; lra).
  assert (G1 : 0 <= (k - (v - tenth c * R) / R) * R) by (apply Qmult_le_0_compat; lra).
  assert (G2 : 0 < ((v - tenth c * R) / R - (k - 1)) * R) by (apply Qmult_lt_0_compat; lra).
  split; lra.
Qed.

Lemma round_to_res_nonneg c v r : ~ r == 0 -> 0 <= v -> tenth c < 1 -> (0 <= round_to_res c v r)%Z.
Proof.
  intros Hr Hv Ht.
  destruct (round_to_res_spec c v r Hr) as [H1 _].
  pose proof (Qabs_nonzero r Hr) as HR. set (R := Qabs r) in *.
  set (b := round_to_res c v r) in *.
  destruct (Z_lt_le_dec b 0) as [Hneg | Hok]; [|exact Hok]. exfalso.
  assert (Hb : Zq b <= -1) by (apply -> (Zq_le b (-1)); lia).
  assert (G : 0 <= (-1 - Zq b) * R) by (apply Qmult_le_0_compat; lra).
  assert (G2 : 0 < (1 - tenth c) * R) by (apply Qmult_lt_0_compat; lra).
  lra.
Qed.

Lemma buffered_is_pad c g xb yb g' : buffered c g xb yb = Ok g' ->
  exists rx ry, resolution c g = Ok (rx, ry) /\ ~ rx == 0 /\ ~ ry == 0 /\
    g' = pad g (round_to_res c xb rx)
               (Some (round_to_res c (match yb with None => xb | Some v => v end) ry)).
Proof.
  unfold buffered. destruct (resolution c g) as [[rx ry]|e]; [|discriminate]. cbn [bind].
  destruct (Qeq_bool rx 0) eqn:E1; [discriminate|]. destruct (Qeq_bool ry 0) eqn:E2; [discriminate|].
  cbn [orb]. rewrite !(Z.mul_comm 2). intros H; injection H as <-.
  exists rx, ry. split; [reflexivity|]. split; [exact (Qeq_bool_neq _ _ E1)|]. split; [exact (Qeq_bool_neq _ _ E2)|].
  reflexivity.
Qed.

Lemma split_float_sum x : fst (split_float x) + snd (split_float x) == x.
Proof.
  unfold split_float.
  destruct (Qltb (1 # 2) (x - Zq (Qtrunc x))); [cbn [fst snd]; ring|].
  destruct (Qltb (x - Zq (Qtrunc x)) (- (1 # 2))); cbn [fst snd]; ring.
Qed.

Lemma maybe_int_ge x tol : 0 <= tol -> x - tol <= maybe_int x tol.
Proof.
  intros Ht. unfold maybe_int. pose proof (split_float_sum x) as S.
  destruct (split_float x) as [w p]. cbn [fst snd] in S.
  destruct (Qltb (Qabs p) tol) eqn:E.
  - apply Qltb_true in E. pose proof (Qle_Qabs p). lra.
  - lra.
Qed.

(** the pixel count [snap_tight] takes for a span [d] at pixel size [r > 0] reaches the far end up to [tol] pixels *)
Lemma snap_reach d r tol : 0 <= tol -> 0 < r ->
  d - tol * r <= Zq (Z.max 1 (Qceiling (maybe_int (d / r) tol))) * r.
Proof.
  intros Ht Hr. set (m := maybe_int (d / r) tol).
  pose proof (maybe_int_ge (d / r) tol Ht) as Hm. fold m in Hm.
  pose proof (Qle_ceiling m) as Hc.
  assert (Hz : Zq (Qceiling m) <= Zq (Z.max 1 (Qceiling m))) by (apply -> Zq_le; lia).
  unfold Zq in Hz at 1.
  assert (E : d / r * r == d) by (field; lra).
  assert (G : 0 <= (Zq (Z.max 1 (Qceiling m)) - (d / r - tol)) * r) by (apply Qmult_le_0_compat; lra).
  lra.
Qed.

(** for [r < 0] the grid starts at the other end and the same count is taken with [- r] *)
Lemma snap_tight_spec x0 x1 r tol off n : 0 <= tol -> snap_tight x0 x1 r tol = Ok (off, n) ->
  ~ r == 0 /\ (1 <= n)%Z /\
  (0 < r -> off = x0 /\ x1 - tol * r <= off + Zq n * r) /\
  (r < 0 -> off = x1 /\ off + Zq n * r <= x0 + tol * (- r)).
Proof.
  intros Ht. unfold snap_tight.
  destruct (Qltb 0 r) eqn:E1.
  - apply Qltb_true in E1. intros H; injection H as <- <-.
    split; [lra|]. split; [lia|]. split; [|intros; lra]. intros _. split; [reflexivity|].
    pose proof (snap_reach (x1 - x0) r tol Ht E1). lra.
  - apply Qltb_false in E1.
    destruct (Qeq_bool r 0) eqn:E2; [discriminate|]. apply Qeq_bool_neq in E2.
    intros H; injection H as <- <-.
    split; [exact E2|]. split; [lia|]. split; [intros; lra|]. intros Hneg. split; [reflexivity|].
    rewrite Z.max_comm. pose proof (snap_reach (x1 - x0) (- r) tol Ht ltac:(lra)). lra.
Qed.

Lemma zoom_to_res_contract c g rx ry g' l b r t :
  0 <= tol_snap c -> boundingbox g = (l, b, r, t) -> zoom_to_res c g rx ry = Ok g' ->
  g_crs g' = g_crs g /\ (1 <= g_nx g')%Z /\ (1 <= g_ny g')%Z /\
  aa (g_A g') == rx /\ ab (g_A g') == 0 /\ ad (g_A g') == 0 /\ ae (g_A g') == ry /\
  ~ rx == 0 /\ ~ ry == 0 /\
  (forall y, (0 < rx -> fst (pix2wld g' (0, y)) == l /\
                         r - tol_snap c * rx <= fst (pix2wld g' (Zq (g_nx g'), y))) /\
             (rx < 0 -> fst (pix2wld g' (0, y)) == r /\
                         fst (pix2wld g' (Zq (g_nx g'), y)) <= l + tol_snap c * (- rx))) /\
  (forall x, (0 < ry -> snd (pix2wld g' (x, 0)) == b /\
                         t - tol_snap c * ry <= snd (pix2wld g' (x, Zq (g_ny g')))) /\
             (ry < 0 -> snd (pix2wld g' (x, 0)) == t /\
                         snd (pix2wld g' (x, Zq (g_ny g'))) <= b + tol_snap c * (- ry))).
Proof.
  intros Ht Hb. unfold zoom_to_res. rewrite Hb.
  destruct (snap_tight l r rx (tol_snap c)) as [[offx nx]|e] eqn:Ex; [|discriminate]. cbn [bind].
  destruct (snap_tight b t ry (tol_snap c)) as [[offy ny]|e] eqn:Ey; [|discriminate]. cbn [bind].
  intros H; injection H as <-. cbn [g_crs g_nx g_ny g_A].
  destruct (snap_tight_spec _ _ _ _ _ _ Ht Ex) as (Rx & Nx & Px & Mx).
  destruct (snap_tight_spec _ _ _ _ _ _ Ht Ey) as (Ry & Ny & Py & My).
  split; [reflexivity|]. split; [exact Nx|]. split; [exact Ny|].
  unfold pix2wld, apply, amul, atrans, ascale; cbn [g_A aa ab ac ad ae af fst snd].
  split; [ring|]. split; [ring|]. split; [ring|]. split; [ring|].
  split; [exact Rx|]. split; [exact Ry|]. split.
  - intros y. split; intros Hs.
    + destruct (Px Hs) as [-> Hc]. split; [ring | lra].
    + destruct (Mx Hs) as [-> Hc]. split; [ring | lra].
  - intros x. split; intros Hs.
    + destruct (Py Hs) as [-> Hc]. split; [ring | lra].
    + destruct (My Hs) as [-> Hc]. split; [ring | lra].
Qed.

(** GCP based geoboxes: the polynomial fit is an oracle *)
Section GCP.
  Variable p2w : pt -> pt.
  Hypothesis p2w_proper : forall p q, peq p q -> peq (p2w p) (p2w q).

  Lemma gcp_transfer g g' (gm : pt -> pt) :
    (forall p, peq (pix2wld g' p) (pix2wld g (gm p))) ->
    forall p, peq (gcp_pix2wld p2w g' p) (gcp_pix2wld p2w g (gm p)).
  Proof. intros H p. apply p2w_proper, H. Qed.

  Lemma gcp_getitem g sy sx g' : getitem g (RTup [sy; sx]) = Ok g' ->
    let '(y0, y1, _) := norm_bounds sy (g_ny g) in
    let '(x0, x1, _) := norm_bounds sx (g_nx g) in
    g_ny g' = (y1 - y0)%Z /\ g_nx g' = (x1 - x0)%Z /\ g_crs g' = g_crs g /\
    forall p, peq (gcp_pix2wld p2w g' p) (gcp_pix2wld p2w g (fst p + Zq x0, snd p + Zq y0)).
  Proof.
    intros H. pose proof (getitem_tup_contract g sy sx g' H) as C.
    destruct (norm_bounds sy (g_ny g)) as [[y0 y1] sty], (norm_bounds sx (g_nx g)) as [[x0 x1] stx].
    destruct C as (C1 & C2 & C3 & C4). split; [exact C1|]. split; [exact C2|]. split; [exact C3|].
    exact (gcp_transfer g g' (fun p => (fst p + Zq x0, snd p + Zq y0)) C4).
  Qed.

  Lemma gcp_pad g padx pady p :
    peq (gcp_pix2wld p2w (pad g padx pady) p)
        (gcp_pix2wld p2w g (fst p - Zq padx, snd p - Zq (fill pady padx))).
  Proof.
    apply (gcp_transfer g (pad g padx pady) (fun p => (fst p - Zq padx, snd p - Zq (fill pady padx)))).
    intros q. apply pad_contract.
  Qed.

  Lemma gcp_zoom_out g f g' : 0 < f -> zoom_out g f = Ok g' ->
    forall p, peq (gcp_pix2wld p2w g' p) (gcp_pix2wld p2w g (f * fst p, f * snd p)).
  Proof.
    intros Hf H. destruct (zoom_out_contract g f Hf) as (g2 & H2 & _ & _ & _ & C & _).
    rewrite H in H2. injection H2 as <-.
    exact (gcp_transfer g g' (fun p => (f * fst p, f * snd p)) C).
  Qed.
End GCP.
