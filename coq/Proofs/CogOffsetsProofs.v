(** Offsets computed by _extract_tile_info / _patch_hdr from the observed
    (size, tile) stream: exact closed form, order, gap-freeness, where a chunk
    lies in the concatenated byte stream, the entries _patch_hdr writes, and
    the metas of _make_empty_cog. *)
From Coq Require Import ZArith List Bool Lia Permutation.
From OG Require Import Base.Result Base.ListSel Model.CogLayout Proofs.CogLayoutProofs Proofs.CogTilesProofs.
From OG Require Base.Threads.
Import ListNotations.
Open Scope Z_scope.

Definition zsum (l : list Z) : Z := fold_right Z.add 0 l.
Definition presum (sizes : list Z) (n : nat) : Z := zsum (firstn n sizes).

Definition tile_of (o : obs) : Z * Z * Z * Z := fst o.
Definition size_of (o : obs) : Z := snd o.

Lemma zsum_nonneg l : Forall (fun s => 0 <= s) l -> 0 <= zsum l.
Proof. induction 1; simpl; lia. Qed.

Lemma zsum_app a b : zsum (a ++ b) = zsum a + zsum b.
Proof. induction a; simpl; lia. Qed.

Lemma presum_0 sizes : presum sizes 0 = 0.
Proof. reflexivity. Qed.

Lemma presum_cons s sizes n : presum (s :: sizes) (S n) = s + presum sizes n.
Proof. reflexivity. Qed.

Lemma presum_S sizes : forall n, presum sizes (S n) = presum sizes n + nth n sizes 0.
Proof. exact (lsum_firstn_S sizes). Qed.

Lemma presum_step sizes n s : nth_error sizes n = Some s -> presum sizes (S n) = presum sizes n + s.
Proof. intros E. rewrite presum_S, (nth_error_nth _ _ 0 E). reflexivity. Qed.

Lemma presum_mono sizes n1 n2 :
  Forall (fun s => 0 <= s) sizes -> (n1 <= n2)%nat -> presum sizes n1 <= presum sizes n2.
Proof. exact (lsum_firstn_mono sizes n1 n2). Qed.

Lemma presum_nonneg sizes n : Forall (fun s => 0 <= s) sizes -> 0 <= presum sizes n.
Proof. intros Hs. exact (presum_mono sizes 0 n Hs (Nat.le_0_l n)). Qed.

Lemma presum_all sizes n : (length sizes <= n)%nat -> presum sizes n = zsum sizes.
Proof. intros H. unfold presum. rewrite firstn_all2 by exact H. reflexivity. Qed.

Lemma presum_le_zsum sizes n : Forall (fun s => 0 <= s) sizes -> presum sizes n <= zsum sizes.
Proof.
  intros Hs. rewrite <- (presum_all sizes (Nat.max n (length sizes))) by lia.
  apply presum_mono; [exact Hs | lia].
Qed.

Lemma offsets_ordered sizes start n1 n2 s1 :
  Forall (fun s => 0 <= s) sizes -> (n1 < n2)%nat -> nth_error sizes n1 = Some s1 ->
  start + presum sizes n1 + s1 <= start + presum sizes n2.
Proof.
  intros Hs Hlt E1. rewrite <- Z.add_assoc. rewrite <- (presum_step _ _ _ E1).
  pose proof (presum_mono sizes (S n1) n2 Hs ltac:(lia)). lia.
Qed.

Lemma offsets_gap_free sizes : forall start b,
  Forall (fun s => 0 <= s) sizes -> start <= b < start + zsum sizes ->
  exists n s, nth_error sizes n = Some s /\ start + presum sizes n <= b < start + presum sizes n + s.
Proof.
  induction sizes as [|a l IH]; intros start b Hs Hb.
  - simpl in Hb. lia.
  - inversion Hs; subst. simpl in Hb.
    destruct (Z_lt_le_dec b (start + a)) as [Hlt | Hge].
    + exists O, a. split; [reflexivity|]. rewrite presum_0. lia.
    + destruct (IH (start + a) b ltac:(assumption) ltac:(unfold zsum in *; lia)) as (n & s & E & B).
      exists (S n), s. split; [exact E|]. rewrite presum_cons. lia.
Qed.

Lemma len_concat {A} (cs : list (list A)) : len (concat cs) = zsum (map len cs).
Proof. induction cs as [|c cs IH]; [reflexivity|]. cbn [concat map zsum fold_right]. rewrite len_app, IH. reflexivity. Qed.

Lemma sel_concat_nth {A} (cs : list (list A)) hdr n c :
  nth_error cs n = Some c ->
  sel (hdr ++ concat cs) (len hdr + presum (map len cs) n) (len hdr + presum (map len cs) n + len c) = c.
Proof.
  intros E. apply nth_error_split in E as (l1 & l2 & -> & <-). unfold presum.
  rewrite map_app, <- (map_length len l1), firstn_app, Nat.sub_diag, firstn_all, app_nil_r, <- len_concat.
  rewrite concat_app. cbn [concat]. rewrite app_assoc, <- len_app. apply sel_app_mid.
Qed.

(** [CogLayout.upd] is [Base/Threads.upd] *)
Lemma nth_upd {A} (l : list A) : forall i j v d,
  nth j (upd l i v) d = if (Nat.eqb j i && Nat.ltb i (length l))%bool then v else nth j l d.
Proof.
  induction l as [|a l IH]; intros i j v d.
  - simpl. rewrite andb_false_r. reflexivity.
  - destruct i as [|i], j as [|j]; simpl; auto.
    rewrite IH. reflexivity.
Qed.

Lemma nth_error_upd_same {A} (l : list A) : forall i v, (i < length l)%nat -> nth_error (upd l i v) i = Some v.
Proof.
  intros i v H. destruct (nth_error l i) eqn:E; [exact (Threads.nth_error_upd_eq l i v _ E)|].
  apply nth_error_None in E. lia.
Qed.

Lemma nth_error_upd_other {A} (l : list A) : forall i j v, i <> j -> nth_error (upd l i v) j = nth_error l j.
Proof. intros i j v. apply Threads.nth_error_upd_neq. Qed.

Definition key := (nat * nat)%type.
Definition getE (info : tile_info) (k : key) : Z * Z := entry_at info (fst k) (snd k).

Definition wf_info (mm : list meta) (info : tile_info) : Prop :=
  Forall2 (fun m ol => length (fst ol) = Z.to_nat (num_tiles m) /\
                       length (snd ol) = Z.to_nat (num_tiles m)) mm info.

Definition key_fn (mm : list meta) (t : Z * Z * Z * Z) : key :=
  let '(i, p, y, x) := t in
  (Z.to_nat i,
   match nth_error mm (Z.to_nat i) with
   | Some m => match flat_tile_idx m (p, y, x) with Ok t => Z.to_nat t | Err _ => O end
   | None => O
   end).

Lemma Forall2_nth_error {A B} (R : A -> B -> Prop) l1 l2 n a :
  Forall2 R l1 l2 -> nth_error l1 n = Some a -> exists b, nth_error l2 n = Some b /\ R a b.
Proof.
  intros H; revert n; induction H; intros [|n] E; simpl in *; try discriminate.
  - inversion E; subst; eauto.
  - eauto.
Qed.

Lemma Forall2_len {A B} (R : A -> B -> Prop) l1 l2 : Forall2 R l1 l2 -> length l1 = length l2.
Proof. induction 1; simpl; auto. Qed.

Lemma Forall2_upd {A B} (R : A -> B -> Prop) l1 l2 n a b :
  Forall2 R l1 l2 -> nth_error l1 n = Some a -> R a b -> Forall2 R l1 (upd l2 n b).
Proof.
  intros H; revert n; induction H; intros [|n] E Rb; simpl in *; try discriminate.
  - inversion E; subst. constructor; auto.
  - constructor; auto.
Qed.

Lemma py_index_in_range {A} (l : list A) i a :
  0 <= i -> nth_error l (Z.to_nat i) = Some a -> py_index l i = Ok (Z.to_nat i, a).
Proof.
  intros Hi Hn. unfold py_index, py_norm_index.
  assert (Hlt : (Z.to_nat i < length l)%nat) by (apply nth_error_Some; congruence).
  destruct (i <? 0) eqn:E; [apply Z.ltb_lt in E; lia|].
  unfold len. destruct ((0 <=? i) && (i <? Z.of_nat (length l))) eqn:E2.
  - cbn [bind]. rewrite Hn. reflexivity.
  - apply andb_false_iff in E2 as [E2 | E2]; [apply Z.leb_gt in E2 | apply Z.ltb_ge in E2]; lia.
Qed.

Lemma getE_upd info j ol k :
  (j < length info)%nat ->
  getE (upd info j ol) k =
    if Nat.eqb (fst k) j then (nth (snd k) (fst ol) 0, nth (snd k) (snd ol) 0) else getE info k.
Proof.
  intros Hj. unfold getE, entry_at. rewrite nth_upd.
  destruct (Nat.eqb (fst k) j) eqn:E; simpl.
  - apply Nat.ltb_lt in Hj. rewrite Hj. reflexivity.
  - reflexivity.
Qed.

Lemma extract_step_spec mm info off i p y x sz m t :
  wf_info mm info -> 0 <= i -> nth_error mm (Z.to_nat i) = Some m ->
  flat_tile_idx m (p, y, x) = Ok t -> 0 <= t < num_tiles m ->
  exists info',
    extract_step mm (info, off) (i, p, y, x, sz) = Ok (info', off + sz) /\
    wf_info mm info' /\
    (forall k, k <> (Z.to_nat i, Z.to_nat t) -> getE info' k = getE info k) /\
    getE info' (Z.to_nat i, Z.to_nat t) =
      if sz =? 0 then getE info (Z.to_nat i, Z.to_nat t) else (off, sz).
Proof.
  intros Hwf Hi Hm Ht Bt.
  destruct (Forall2_nth_error _ _ _ _ _ Hwf Hm) as ([offs lens] & Hol & L1 & L2). cbn [fst snd] in L1, L2.
  unfold extract_step. rewrite (py_index_in_range mm i m Hi Hm). cbn [bind].
  rewrite (py_index_in_range info i (offs, lens) Hi Hol). cbn [bind]. rewrite Ht. cbn [bind].
  destruct (Z.eqb_spec sz 0) as [-> | Hsz].
  - exists info. rewrite Z.add_0_r. auto.
  - assert (Hj : (Z.to_nat i < length info)%nat) by (apply nth_error_Some; congruence).
    eexists. split; [reflexivity|]. split; [|split].
    + eapply Forall2_upd; eauto. cbn [fst snd]. rewrite !Threads.upd_length. auto.
    + intros [a b] Hne. rewrite getE_upd by exact Hj. cbn [fst snd].
      destruct (Nat.eqb_spec a (Z.to_nat i)) as [-> | _]; [|reflexivity].
      rewrite !nth_upd. destruct (Nat.eqb_spec b (Z.to_nat t)) as [-> | _]; [congruence|].
      unfold getE, entry_at. cbn [fst snd andb]. rewrite (nth_error_nth info _ ([], []) Hol). reflexivity.
    + rewrite getE_upd by exact Hj. cbn [fst snd]. rewrite !nth_upd, !Nat.eqb_refl, L1, L2.
      rewrite (proj2 (Nat.ltb_lt _ _)) by lia. reflexivity.
Qed.

Lemma valid_tile_flat mm i p y x :
  valid_tile mm (i, p, y, x) ->
  0 <= i /\ exists m t, nth_error mm (Z.to_nat i) = Some m /\ flat_tile_idx m (p, y, x) = Ok t /\
                        0 <= t < num_tiles m /\ key_fn mm (i, p, y, x) = (Z.to_nat i, Z.to_nat t).
Proof.
  intros (Hi & m & Hm & Hr). split; [exact Hi|]. exists m, (flat_idx m (p, y, x)).
  pose proof (flat_tile_idx_eq m _ Hr) as Et. unfold key_fn. rewrite Hm, Et.
  auto using flat_idx_bound.
Qed.

Lemma extract_loop_spec mm : forall (tiles : list obs) info off,
  wf_info mm info ->
  Forall (fun o => valid_tile mm (tile_of o)) tiles ->
  NoDup (map (fun o => key_fn mm (tile_of o)) tiles) ->
  exists info',
    extract_loop mm (info, off) tiles = Ok (info', off + zsum (map size_of tiles)) /\
    wf_info mm info' /\
    (forall k, ~ In k (map (fun o => key_fn mm (tile_of o)) tiles) -> getE info' k = getE info k) /\
    (forall n o, nth_error tiles n = Some o ->
       getE info' (key_fn mm (tile_of o)) =
         if size_of o =? 0 then getE info (key_fn mm (tile_of o))
         else (off + presum (map size_of tiles) n, size_of o)).
Proof.
  induction tiles as [|o r IH]; intros info off Hwf Hval Hnd.
  - exists info. simpl. rewrite Z.add_0_r. repeat split; auto. intros [|n] o E; discriminate.
  - inversion Hval as [|? ? Ho Hr]; subst. cbn [map] in Hnd. inversion Hnd as [|? ? Hnotin Hnd']; subst.
    destruct o as [[[[i p] y] x] sz]. unfold tile_of, size_of in *. cbn [fst snd] in *.
    destruct (valid_tile_flat mm i p y x Ho) as (Hi & m & t & Hm & Ht & Bt & Ek).
    destruct (extract_step_spec mm info off i p y x sz m t Hwf Hi Hm Ht Bt) as (info1 & E1 & Hwf1 & Gne & Geq).
    rewrite <- Ek in Gne, Geq.
    destruct (IH info1 (off + sz) Hwf1 Hr Hnd') as (info' & E' & Hwf' & Gout & Gin).
    exists info'. split.
    { cbn [extract_loop]. rewrite E1. cbn [bind]. rewrite E'. cbn [map zsum fold_right snd].
      rewrite Z.add_assoc. reflexivity. }
    split; [exact Hwf'|]. split.
    { intros k Hk. cbn [map] in Hk. rewrite Gout by (intros X; apply Hk; right; exact X).
      apply Gne. intros ->. apply Hk. left. reflexivity. }
    intros [|n] o Eo; cbn [nth_error] in Eo.
    + injection Eo as <-. cbn [fst snd]. rewrite presum_0, Z.add_0_r, Gout by exact Hnotin. exact Geq.
    + rewrite (Gin n o Eo), Gne.
      * cbn [map]. rewrite presum_cons, Z.add_assoc. reflexivity.
      * intros X. apply Hnotin. rewrite <- X.
        apply (in_map (fun o0 => key_fn mm (fst o0))). eapply nth_error_In, Eo.
Qed.

Lemma nth_zeros n j : nth j (zeros n) 0 = 0.
Proof. apply nth_repeat. Qed.

Lemma getE_info0 mm k :
  getE (map (fun m => (zeros (num_tiles m), zeros (num_tiles m))) mm) k = (0, 0).
Proof.
  unfold getE, entry_at. destruct (nth_error mm (fst k)) as [m|] eqn:E.
  - rewrite (nth_error_nth _ _ _ (map_nth_error _ _ _ E)). cbn [fst snd]. rewrite !nth_zeros. reflexivity.
  - rewrite (nth_overflow (map _ mm)) by (rewrite map_length; apply nth_error_None, E).
    destruct (snd k); reflexivity.
Qed.

Lemma wf_info0 mm : wf_info mm (map (fun m => (zeros (num_tiles m), zeros (num_tiles m))) mm).
Proof.
  unfold wf_info. induction mm as [|m mm IH]; simpl; constructor; auto.
  cbn [fst snd]. unfold zeros. rewrite repeat_length. auto.
Qed.

Lemma key_fn_inj mm a b :
  valid_tile mm a -> valid_tile mm b -> key_fn mm a = key_fn mm b -> a = b.
Proof.
  destruct a as [[[i p] y] x], b as [[[i' p'] y'] x']. intros Ha Hb E.
  destruct (valid_tile_flat _ _ _ _ _ Ha) as (Hi & m & t & Hm & Ht & Bt & Ek).
  destruct (valid_tile_flat _ _ _ _ _ Hb) as (Hi' & m' & t' & Hm' & Ht' & Bt' & Ek').
  rewrite Ek, Ek' in E. inversion E as [[E1 E2]].
  assert (i = i') by lia. subst i'. rewrite Hm in Hm'. inversion Hm'; subst m'.
  assert (t = t') by lia. subst t'.
  pose proof (flat_tile_idx_inj m _ _ _ Ht Ht') as X. inversion X; subst. reflexivity.
Qed.

(** the stream enumerates every tile of [mm] exactly once, in any order *)
Definition complete_stream (mm : list meta) (stream : list obs) : Prop :=
  Permutation (map tile_of stream) (cog_tidx mm).

Lemma complete_stream_valid mm stream :
  complete_stream mm stream ->
  Forall (fun o => valid_tile mm (tile_of o)) stream /\
  NoDup (map (fun o => key_fn mm (tile_of o)) stream).
Proof.
  intros Hp. unfold complete_stream in Hp.
  assert (V : forall o, In o stream -> valid_tile mm (tile_of o)).
  { intros o Ho. apply in_cog_tidx. eapply Permutation_in; [exact Hp|]. apply in_map. exact Ho. }
  split; [apply Forall_forall; exact V|].
  assert (Hnd : NoDup (map tile_of stream)).
  { eapply Permutation_NoDup; [apply Permutation_sym; exact Hp | apply NoDup_cog_tidx]. }
  rewrite <- (map_map tile_of (key_fn mm)).
  apply NoDup_map_in; [|exact Hnd].
  intros a b Ha Hb. apply key_fn_inj.
  - apply in_map_iff in Ha as (o & <- & Ho). apply V; auto.
  - apply in_map_iff in Hb as (o & <- & Ho). apply V; auto.
Qed.

Lemma extract_tile_info_spec mm stream start :
  complete_stream mm stream ->
  exists info,
    extract_tile_info mm stream start = Ok info /\ wf_info mm info /\
    forall n o, nth_error stream n = Some o ->
      getE info (key_fn mm (tile_of o)) =
        if size_of o =? 0 then (0, 0) else (start + presum (map size_of stream) n, size_of o).
Proof.
  intros Hc. destruct (complete_stream_valid mm stream Hc) as (Hv & Hnd).
  destruct (extract_loop_spec mm stream _ start (wf_info0 mm) Hv Hnd) as (info & E & Hwf & _ & G).
  exists info. split; [unfold extract_tile_info; cbn zeta; unfold tile_info in *; rewrite E; reflexivity|].
  split; [exact Hwf|].
  intros n o Eo. rewrite (G n o Eo). rewrite getE_info0. reflexivity.
Qed.

Lemma getE_patch mm info h t :
  wf_info mm info -> valid_tile mm t ->
  getE (patch_entries h info) (key_fn mm t) =
    (fst (getE info (key_fn mm t)) + h, snd (getE info (key_fn mm t))).
Proof.
  intros Hwf Hv. destruct t as [[[i p] y] x].
  destruct (valid_tile_flat _ _ _ _ _ Hv) as (Hi & m & t & Hm & Ht & Bt & Ek).
  rewrite Ek. unfold getE, entry_at, patch_entries. cbn [fst snd].
  destruct (Forall2_nth_error _ _ _ _ _ Hwf Hm) as ([offs lens] & Hol & L1 & L2). cbn [fst snd] in L1, L2.
  rewrite (nth_error_nth _ _ ([], []) (map_nth_error _ _ _ Hol)).
  rewrite (nth_error_nth _ _ ([], []) Hol). cbn [fst snd]. f_equal.
  assert (Hlt : (Z.to_nat t < length offs)%nat) by lia.
  destruct (nth_error offs (Z.to_nat t)) as [v|] eqn:E; [|apply nth_error_None in E; lia].
  rewrite (nth_error_nth _ _ 0 (map_nth_error _ _ _ E)). rewrite (nth_error_nth _ _ 0 E). reflexivity.
Qed.

Lemma patch_hdr_tags_spec mm stream hdr_sz :
  complete_stream mm stream ->
  exists tags,
    patch_hdr_tags mm stream hdr_sz = Ok tags /\ length tags = length mm /\
    forall n o, nth_error stream n = Some o ->
      getE tags (key_fn mm (tile_of o)) =
        if size_of o =? 0 then (hdr_sz, 0)
        else (hdr_sz + presum (map size_of stream) n, size_of o).
Proof.
  intros Hc. destruct (extract_tile_info_spec mm stream 0 Hc) as (info & E & Hwf & G).
  exists (patch_entries hdr_sz info). unfold patch_hdr_tags. rewrite E. cbn [bind].
  pose proof (Forall2_len _ _ _ Hwf) as L. rewrite <- L. rewrite Nat.eqb_refl.
  split; [reflexivity|]. split; [unfold patch_entries; rewrite map_length; auto|].
  intros n o Eo.
  assert (Hv : valid_tile mm (tile_of o)).
  { destruct (complete_stream_valid mm stream Hc) as (Hv & _). rewrite Forall_forall in Hv.
    apply Hv. eapply nth_error_In; eauto. }
  rewrite (getE_patch mm info hdr_sz _ Hwf Hv). rewrite (G n o Eo).
  destruct (size_of o =? 0); cbn [fst snd]; f_equal; lia.
Qed.

Definition metas_of (ax : axis) (ns : Z) (lv : list level) : list meta :=
  map (fun l => Meta ax (l_shape l) (l_tile l) ns) lv.

Lemma uniform_planes_map ax ns lv : uniform_planes (metas_of ax ns lv).
Proof.
  intros m0 m H0 Hin. apply in_map_iff in Hin as (l & <- & _).
  destruct lv as [|l0 lv]; [discriminate|]. simpl in H0. inversion H0; subst. reflexivity.
Qed.

Lemma metas_of_wf ax ns lv :
  1 <= ns ->
  Forall (fun l => 1 <= fst (l_shape l) /\ 1 <= snd (l_shape l) /\ tile_ok (l_tile l)) lv ->
  Forall wf_meta (metas_of ax ns lv).
Proof.
  intros Hns H. unfold metas_of. apply Forall_forall. intros m Hin.
  apply in_map_iff in Hin as (l & <- & Hl). rewrite Forall_forall in H.
  destruct (H l Hl) as (A & B & (C & _ & D & _)). unfold wf_meta. cbn. auto.
Qed.

Lemma make_levels_metas bs ax H W ns :
  bs <> [] -> Forall blk_pos bs -> 1 <= H -> 1 <= W -> 1 <= ns ->
  exists lv n, make_levels bs (H, W) = Ok (lv, n) /\
    Forall wf_meta (metas_of ax ns lv) /\ uniform_planes (metas_of ax ns lv).
Proof.
  intros Hne Hall HH HW Hns.
  destruct (make_levels_ok bs H W Hne Hall HH HW) as (nh & nw & _ & _ & _ & E).
  eexists _, _. split; [exact E|]. split; [|apply uniform_planes_map].
  apply metas_of_wf; [exact Hns | exact (make_levels_wf bs H W _ _ Hne Hall HH HW E)].
Qed.

Lemma yaxis_from_shape_3d d0 d1 d2 gshape ya ax yaxis :
  yaxis_from_shape [d0; d1; d2] gshape ya = Ok (ax, yaxis) -> ax = YXS \/ ax = SYX.
Proof.
  cbn. intros Hy.
  destruct ya as [ya|]; [destruct (ya =? 0); inversion Hy; auto|].
  destruct ((d2 =? 3) || (d2 =? 4)); [inversion Hy; auto|].
  destruct gshape as [g|]; [|inversion Hy; auto].
  destruct (zz_eq g (d0, d1)); [inversion Hy; auto|].
  destruct (zz_eq g (d1, d2)); [inversion Hy; auto | discriminate].
Qed.

(** _make_empty_cog on the three accepted array layouts *)
Lemma make_metas_spec shape gshape ya bs ax yaxis :
  yaxis_from_shape shape gshape ya = Ok (ax, yaxis) ->
  bs <> [] -> Forall blk_pos bs -> Forall (fun d => 1 <= d) shape ->
  exists H W ns lv n,
    (match ax with
     | YX => shape = [H; W] /\ ns = 1
     | YXS => shape = [H; W; ns]
     | SYX => shape = [ns; H; W]
     end) /\
    make_levels bs (H, W) = Ok (lv, n) /\
    make_metas shape gshape ya bs = Ok (metas_of ax ns lv) /\
    Forall wf_meta (metas_of ax ns lv) /\ uniform_planes (metas_of ax ns lv).
Proof.
  intros Hy Hne Hall Hpos. rewrite Forall_forall in Hpos.
  unfold make_metas. rewrite Hy. cbn [bind].
  destruct shape as [|d0 [|d1 [|d2 [|d3 r]]]]; try discriminate.
  - injection Hy as <- _.
    destruct (make_levels_metas bs YX d0 d1 1 Hne Hall) as (lv & n & E & Wf & U); [apply Hpos; simpl; auto ..| lia |].
    exists d0, d1, 1, lv, n. rewrite E. cbn [bind]. auto 6.
  - destruct (yaxis_from_shape_3d _ _ _ _ _ _ _ Hy) as [-> | ->].
    + destruct (make_levels_metas bs YXS d0 d1 d2 Hne Hall) as (lv & n & E & Wf & U); [apply Hpos; simpl; auto ..|].
      exists d0, d1, d2, lv, n. rewrite E. cbn [bind]. auto 6.
    + destruct (make_levels_metas bs SYX d1 d2 d0 Hne Hall) as (lv & n & E & Wf & U); [apply Hpos; simpl; auto ..|].
      exists d1, d2, d0, lv, n. rewrite E. cbn [bind]. auto 6.
Qed.
