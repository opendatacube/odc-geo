(** decompose_rws (rotation / shear / scale) and affine_from_pts (least squares).

    decompose_rws: with [l11], [l22] the two square roots of the Cholesky
    factorisation of [A^T A], the factor [R = A WS^-1] is orthogonal by a
    polynomial identity in the entries of [A] and the inverses of the roots
    ([rws_core]), and the sign fix makes it a rotation ([orth_fix]).

    affine_from_pts: the right-hand sides of the normal equations computed from
    the images of the points under an affine map are linear combinations of the
    columns of the normal matrix ([normal_rhs_exact]), and Cramer's rule returns
    the coefficients of such a combination ([cramer3_linear]). *)
From Coq Require Import ZArith QArith List Lia Lqa.
From OG Require Import Base.Result Base.QZ Model.MathH Proofs.MathHBasics.
Import ListNotations.
Open Scope Q_scope.

(** two orthonormal vectors span a matrix of determinant +-1 (Lagrange's identity) *)
Lemma orth_det_sq p q r s :
  p * p + q * q == 1 -> p * r + q * s == 0 -> r * r + s * s == 1 ->
  (p * s - r * q) * (p * s - r * q) == 1.
Proof.
  intros A B C.
  transitivity ((p * p + q * q) * (r * r + s * s) - (p * r + q * s) * (p * r + q * s)); [ring|].
  rewrite A, B, C. ring.
Qed.

(** orthogonality of R (Gram-Schmidt on the columns of A), polynomial form: [i1], [i2]
    are the inverses of the roots *)
Lemma rws_core a b c d l11 l22 i1 i2 :
  i1 * l11 == 1 -> i2 * l22 == 1 -> l11 * l11 == a * a + c * c ->
  l22 * l22 == b * b + d * d - ((a * b + c * d) * i1) * ((a * b + c * d) * i1) ->
  let r00 := a * i1 in let r10 := c * i1 in
  let r01 := - (a * (a * b + c * d) * i1 * i1 * i2) + b * i2 in
  let r11 := - (c * (a * b + c * d) * i1 * i1 * i2) + d * i2 in
  r00 * r00 + r10 * r10 == 1 /\ r00 * r01 + r10 * r11 == 0 /\ r01 * r01 + r11 * r11 == 1 /\
  (r00 * r11 - r01 * r10) * (r00 * r11 - r01 * r10) == 1.
Proof.
  intros H1 H2 E1 E2 r00 r10 r01 r11.
  assert (N : (a * a + c * c) * (i1 * i1) == 1).
  { rewrite <- E1. transitivity (i1 * l11 * (i1 * l11)); [ring | rewrite H1; ring]. }
  assert (M : (b * b + d * d - (a * b + c * d) * i1 * ((a * b + c * d) * i1)) * (i2 * i2) == 1).
  { rewrite <- E2. transitivity (i2 * l22 * (i2 * l22)); [ring | rewrite H2; ring]. }
  assert (O1 : r00 * r00 + r10 * r10 == 1).
  { transitivity ((a * a + c * c) * (i1 * i1)); [unfold r00, r10; ring | exact N]. }
  assert (O2 : r00 * r01 + r10 * r11 == 0).
  { transitivity ((a * b + c * d) * i1 * i2 * (1 - (a * a + c * c) * (i1 * i1)));
      [unfold r00, r10, r01, r11; ring | rewrite N; ring]. }
  assert (O3 : r01 * r01 + r11 * r11 == 1).
  { transitivity ((b * b + d * d - (a * b + c * d) * i1 * ((a * b + c * d) * i1)) * (i2 * i2) +
                  (a * b + c * d) * (a * b + c * d) * (i1 * i1) * (i2 * i2) * ((a * a + c * c) * (i1 * i1) - 1));
      [unfold r01, r11; ring | rewrite N, M; ring]. }
  exact (conj O1 (conj O2 (conj O3 (orth_det_sq _ _ _ _ O1 O2 O3)))).
Qed.

Lemma sq1_pos x : x * x == 1 -> 0 <= x -> x == 1.
Proof. intros H P. apply root_unique; lra. Qed.

(** S = diag(diag WS) and W = WS diag(1/ss) multiply back to WS; W is unit upper triangular *)
Lemma ws_split (WS : mat2) (W := m2mul WS (mkM (1 / m00 WS) 0 0 (1 / m11 WS))) :
  ~ m00 WS == 0 -> ~ m11 WS == 0 -> m10 WS == 0 ->
  (forall R A, m2eq (m2mul R WS) A -> m2eq (m2mul R (m2mul W (mkM (m00 WS) 0 0 (m11 WS)))) A) /\
  m00 W == 1 /\ m10 W == 0 /\ m11 W == 1.
Proof.
  destruct WS as [w0 w1 w2 w3]. cbn [m00 m01 m10 m11] in *. intros N0 N1 Z.
  assert (E : m2eq (m2mul W (mkM w0 0 0 w3)) (mkM w0 w1 w2 w3) /\ m00 W == 1 /\ m10 W == 0 /\ m11 W == 1)
    by (unfold W, m2eq, m2mul; cbn [m00 m01 m10 m11]; rewrite Z; repeat split; field; auto).
  destruct E as [E D]. split; [|exact D]. revert E. generalize (m2mul W (mkM w0 0 0 w3)).
  intros [x0 x1 x2 x3] (E0 & E1 & E2 & E3) [r0 r1 r2 r3] [a b c d]. unfold m2eq, m2mul. cbn [m00 m01 m10 m11] in *.
  rewrite E0, E1, E2, E3. auto.
Qed.

(** the sign fix makes an orthogonal matrix a rotation; the columns are orthonormal up to [m2eq] *)
Lemma orth_fix (R R0 : mat2) (R' := if Qltb (m2det R) 0 then mkM (m00 R) (- m01 R) (m10 R) (- m11 R) else R) :
  m2eq R R0 ->
  m00 R0 * m00 R0 + m10 R0 * m10 R0 == 1 /\ m00 R0 * m01 R0 + m10 R0 * m11 R0 == 0 /\
  m01 R0 * m01 R0 + m11 R0 * m11 R0 == 1 /\ m2det R0 * m2det R0 == 1 ->
  m2eq (m2mul (m2T R') R') m2I /\ m2det R' == 1.
Proof.
  destruct R as [p q r s], R0 as [p' q' r' s']. unfold m2det, m2eq, m2mul, m2T, m2I in *. cbn [m00 m01 m10 m11] in *.
  intros (E0 & E1 & E2 & E3) O. rewrite <- E0, <- E1, <- E2, <- E3 in O. destruct O as (O1 & O2 & O3 & O4).
  destruct (Qltb_spec (p * s - q * r) 0) as [D|D]; subst R'; cbn [m00 m01 m10 m11];
    (split; [repeat split; lra | apply sq1_pos; [|lra]]); [rewrite <- O4; ring | exact O4].
Qed.

Lemma decompose_rws_with_spec (A : mat2) (l11 l22 : Q) :
  0 < l11 -> l11 * l11 == m00 (m2mul (m2T A) A) ->
  0 < l22 -> l22 * l22 == m11 (m2mul (m2T A) A) - (m01 (m2mul (m2T A) A) / l11) * (m01 (m2mul (m2T A) A) / l11) ->
  let '(R, W, Sm) := decompose_rws_with l11 l22 A in
  m2eq (m2mul R (m2mul W Sm)) A /\
  m2eq (m2mul (m2T R) R) m2I /\ m2det R == 1 /\
  m00 W == 1 /\ m10 W == 0 /\ m11 W == 1 /\
  m01 Sm == 0 /\ m10 Sm == 0.
Proof.
  intros H1 E1 H2 E2. assert (N1 : ~ l11 == 0) by lra. assert (N2 : ~ l22 == 0) by lra.
  unfold decompose_rws_with. cbv zeta. set (l21 := m01 (m2mul (m2T A) A) / l11) in *.
  set (R := m2mul A (mkM (1 / l11) (- l21 / (l11 * l22)) 0 (1 / l22))).
  destruct A as [a b c d]. unfold m2mul, m2T in E1, E2, l21. cbn [m00 m01 m10 m11] in E1, E2, l21.
  (* R WS = A, whatever l21 *)
  assert (P : m2eq (m2mul R (mkM l11 l21 0 l22)) (mkM a b c d))
    by (unfold R, m2eq, m2mul; cbn [m00 m01 m10 m11]; repeat split; field; auto).
  (* R is orthogonal (rws_core, with inverses for quotients); the sign fix makes its determinant +1 *)
  assert (RE : m2eq R (mkM (a * / l11) (- (a * (a * b + c * d) * / l11 * / l11 * / l22) + b * / l22)
                           (c * / l11) (- (c * (a * b + c * d) * / l11 * / l11 * / l22) + d * / l22)))
    by (unfold R, l21, m2eq, m2mul, Qdiv; cbn [m00 m01 m10 m11]; rewrite Qinv_mult_distr; repeat split; ring).
  assert (I1 : / l11 * l11 == 1) by (field; exact N1). assert (I2 : / l22 * l22 == 1) by (field; exact N2).
  destruct (orth_fix R _ RE (rws_core a b c d l11 l22 (/ l11) (/ l22) I1 I2 E1 E2)) as [OR DR].
  clearbody R. destruct (Qltb (m2det R) 0).
  - destruct (ws_split (mkM l11 l21 (- 0) (- l22))) as (S1 & S2 & S3 & S4); cbn [m00 m01 m10 m11]; try lra.
    refine (conj (S1 _ _ _) (conj OR (conj DR (conj S2 (conj S3 (conj S4 (conj (Qeq_refl 0) (Qeq_refl 0)))))))).
    destruct R as [r0 r1 r2 r3], P as (P0 & P1 & P2 & P3). unfold m2eq, m2mul in *. cbn [m00 m01 m10 m11] in *.
    repeat split; (eapply Qeq_trans; [|eassumption]); ring.
  - destruct (ws_split (mkM l11 l21 0 l22) N1 N2 (Qeq_refl 0)) as (S1 & S2 & S3 & S4).
    exact (conj (S1 _ _ P) (conj OR (conj DR (conj S2 (conj S3 (conj S4 (conj (Qeq_refl 0) (Qeq_refl 0)))))))).
Qed.

Lemma exact_sqrt_spec x r : exact_sqrt x = Some r -> 0 <= r /\ r * r == x.
Proof.
  unfold exact_sqrt. destruct (_ <? 0)%Z; [discriminate|].
  destruct (_ && _) eqn:E; [|discriminate]. intros [= <-].
  apply andb_true_iff in E. destruct E as [En Ed]. apply Z.eqb_eq in En, Ed.
  exact (Qsqrt_red x _ _ (Z.sqrt_nonneg _) (Z.sqrt_nonneg _) En Ed).
Qed.

Lemma decompose_rws_exec_spec (A : mat2) R W Sm : decompose_rws A = Ok (R, W, Sm) ->
  m2eq (m2mul R (m2mul W Sm)) A /\
  m2eq (m2mul (m2T R) R) m2I /\ m2det R == 1 /\
  m00 W == 1 /\ m10 W == 0 /\ m11 W == 1 /\ m01 Sm == 0 /\ m10 Sm == 0.
Proof.
  unfold decompose_rws.
  destruct (exact_sqrt (m00 (m2mul (m2T A) A))) as [l11|] eqn:S1; [|discriminate].
  destruct (Qeq_bool l11 0) eqn:Z1; [discriminate|].
  destruct (exact_sqrt (m11 (m2mul (m2T A) A) - m01 (m2mul (m2T A) A) / l11 * (m01 (m2mul (m2T A) A) / l11)))
    as [l22|] eqn:S2; [|discriminate].
  destruct (Qeq_bool l22 0) eqn:Z2; [discriminate|].
  intros H. injection H as H.
  apply exact_sqrt_spec in S1, S2. destruct S1 as [P1 E1]. destruct S2 as [P2 E2].
  apply Qeq_bool_neq in Z1, Z2.
  assert (H1 : 0 < l11) by lra. assert (H2 : 0 < l22) by lra.
  pose proof (decompose_rws_with_spec A l11 l22 H1 E1 H2 E2) as Sp.
  rewrite H in Sp. exact Sp.
Qed.

Lemma resolution_from_affine_st A tol :
  is_affine_st A tol = true -> resolution_from_affine A tol = Ok (aa A, ae A).
Proof. intros H. unfold resolution_from_affine. rewrite H. reflexivity. Qed.

Lemma resolution_from_affine_rotated A tol rx ry :
  is_affine_st A tol = false -> resolution_from_affine A tol = Ok (rx, ry) ->
  exists R W Sm, decompose_rws (mkM (aa A) (ab A) (ad A) (ae A)) = Ok (R, W, Sm) /\ rx = m00 Sm /\ ry = m11 Sm.
Proof.
  intros H. unfold resolution_from_affine. rewrite H.
  destruct (decompose_rws (mkM (aa A) (ab A) (ad A) (ae A))) as [[[R W] Sm]|]; [|discriminate].
  simpl. intros E. injection E as E1 E2. exists R, W, Sm. repeat split; congruence.
Qed.

Lemma sumQ_combine_map {B} (f : Q * Q -> B) (g : (Q * Q) * B -> Q) X :
  sumQ (map g (combine X (map f X))) == sumQ (map (fun x => g (x, f x)) X).
Proof. induction X as [|x X IH]; simpl; [reflexivity | rewrite IH; reflexivity]. Qed.

Lemma sum_lin_fst X a b c :
  sumQ (map (fun p => fst p * (a * fst p + b * snd p + c)) X) ==
  a * sumQ (map (fun p => fst p * fst p) X) + b * sumQ (map (fun p => fst p * snd p) X) + c * sumQ (map fst X).
Proof. induction X as [|x X IH]; simpl; [ring | rewrite IH; ring]. Qed.

Lemma sum_lin_snd X a b c :
  sumQ (map (fun p => snd p * (a * fst p + b * snd p + c)) X) ==
  a * sumQ (map (fun p => fst p * snd p) X) + b * sumQ (map (fun p => snd p * snd p) X) + c * sumQ (map snd X).
Proof. induction X as [|x X IH]; simpl; [ring | rewrite IH; ring]. Qed.

Lemma sum_lin_one X a b c :
  sumQ (map (fun p => a * fst p + b * snd p + c) X) ==
  a * sumQ (map fst X) + b * sumQ (map snd X) + c * inject_Z (Z.of_nat (length X)).
Proof.
  induction X as [|x X IH]; [simpl; ring|].
  cbn [map sumQ fold_right length]. fold (sumQ (map (fun p => a * fst p + b * snd p + c) X)).
  fold (sumQ (map fst X)). fold (sumQ (map snd X)).
  rewrite IH, Nat2Z.inj_succ. unfold Z.succ. rewrite inject_Z_plus. change (inject_Z 1) with 1. ring.
Qed.

Lemma Qdiv_eq x d a : ~ d == 0 -> x == a * d -> x / d == a.
Proof. intros H ->. apply Qdiv_mult_l, H. Qed.

Lemma cramer3_linear X a b c :
  ~ normal_det X == 0 ->
  let '(sxx, sxy, syy, sx, sy, n) := moments X in
  let '(ra, rb, rc) := cramer3 X (a * sxx + b * sxy + c * sx, a * sxy + b * syy + c * sy, a * sx + b * sy + c * n) in
  ra == a /\ rb == b /\ rc == c.
Proof.
  unfold cramer3, normal_det. destruct (moments X) as [[[[[sxx sxy] syy] sx] sy] n]. intros HD.
  repeat split; (apply Qdiv_eq; [exact HD | unfold det3; ring]).
Qed.

Lemma cramer3_comp X r0 r1 r2 s0 s1 s2 : r0 == s0 -> r1 == s1 -> r2 == s2 ->
  let '(a, b, c) := cramer3 X (r0, r1, r2) in
  let '(a', b', c') := cramer3 X (s0, s1, s2) in
  a == a' /\ b == b' /\ c == c'.
Proof.
  intros E0 E1 E2. unfold cramer3. destruct (moments X) as [[[[[sxx sxy] syy] sx] sy] n].
  unfold det3. rewrite E0, E1, E2. repeat split; reflexivity.
Qed.

Lemma cramer3_solves X a b c r : ~ normal_det X == 0 ->
  (let '(sxx, sxy, syy, sx, sy, n) := moments X in
   let '(r0, r1, r2) := r in
   r0 == a * sxx + b * sxy + c * sx /\ r1 == a * sxy + b * syy + c * sy /\ r2 == a * sx + b * sy + c * n) ->
  let '(ra, rb, rc) := cramer3 X r in ra == a /\ rb == b /\ rc == c.
Proof.
  intros HD. pose proof (cramer3_linear X a b c HD) as L. destruct r as [[r0 r1] r2].
  destruct (moments X) as [[[[[sxx sxy] syy] sx] sy] n]. intros (F0 & F1 & F2).
  pose proof (cramer3_comp X _ _ _ _ _ _ F0 F1 F2) as K.
  destruct (cramer3 X (r0, r1, r2)) as [[ra rb] rc]. destruct (cramer3 X _) as [[a' b'] c'].
  destruct K as (-> & -> & ->). exact L.
Qed.

Lemma normal_rhs_exact A X :
  let '(sxx, sxy, syy, sx, sy, n) := moments X in
  let XY := combine X (map (aff_apply A) X) in
  (let '(r0, r1, r2) := normal_rhs XY fst in
   r0 == aa A * sxx + ab A * sxy + ac A * sx /\ r1 == aa A * sxy + ab A * syy + ac A * sy /\
   r2 == aa A * sx + ab A * sy + ac A * n) /\
  (let '(r0, r1, r2) := normal_rhs XY snd in
   r0 == ad A * sxx + ae A * sxy + af A * sx /\ r1 == ad A * sxy + ae A * syy + af A * sy /\
   r2 == ad A * sx + ae A * sy + af A * n).
Proof.
  unfold moments, normal_rhs. cbv zeta.
  split; (split; [|split]); rewrite (sumQ_combine_map (aff_apply A)); cbn [fst snd aff_apply];
    [apply sum_lin_fst | apply sum_lin_snd | apply sum_lin_one | apply sum_lin_fst | apply sum_lin_snd | apply sum_lin_one].
Qed.

Lemma affine_from_pts_exact (A : aff) (X : list (Q * Q)) (B : aff) :
  affine_from_pts X (map (aff_apply A) X) = Ok B -> aff_eq B A.
Proof.
  unfold affine_from_pts.
  destruct (negb (Nat.eqb (length X) (length (map (aff_apply A) X)))); [discriminate|].
  destruct (negb (3 <=? Z.of_nat (length X))%Z); [discriminate|].
  destruct (Qeq_bool (normal_det X) 0) eqn:HD; [discriminate|]. apply Qeq_bool_neq in HD.
  pose proof (normal_rhs_exact A X) as RH.
  pose proof (cramer3_solves X (aa A) (ab A) (ac A) (normal_rhs (combine X (map (aff_apply A) X)) fst) HD) as C1.
  pose proof (cramer3_solves X (ad A) (ae A) (af A) (normal_rhs (combine X (map (aff_apply A) X)) snd) HD) as C2.
  destruct (moments X) as [[[[[sxx sxy] syy] sx] sy] n]. destruct RH as [RH1 RH2].
  specialize (C1 RH1). specialize (C2 RH2).
  destruct (cramer3 X (normal_rhs _ fst)) as [[a b] c]. destruct (cramer3 X (normal_rhs _ snd)) as [[d e] f].
  intros H. injection H as <-. unfold aff_eq. cbn [aa ab ac ad ae af]. tauto.
Qed.

Lemma affine_from_pts_total (A : aff) (X : list (Q * Q)) :
  (3 <= length X)%nat -> ~ normal_det X == 0 ->
  exists B, affine_from_pts X (map (aff_apply A) X) = Ok B.
Proof.
  intros Hn HD. unfold affine_from_pts.
  rewrite map_length, Nat.eqb_refl, (proj2 (Z.leb_le 3 _)), (Qeq_bool_false _ _ HD) by lia. cbn [negb].
  destruct (cramer3 X (normal_rhs (combine X (map (aff_apply A) X)) fst)) as [[a b] c].
  destruct (cramer3 X (normal_rhs (combine X (map (aff_apply A) X)) snd)) as [[d e] f].
  eexists. reflexivity.
Qed.
