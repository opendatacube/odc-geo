(** Proofs about Model/Overlap.v (C03, C10), in five parts: the terms in which Props/C03.v and C10.v
    are stated; the odc.geo.math helpers of the planner, taken from their twins in Model/MathH.v;
    compute_axis_overlap on one axis, in closed form and at unit scale; the sampled path (_relative_rois
    over roi_from_points, through envelopes of projected boundary points); the paste path (what _can_paste
    accepts, snapped, and box_overlap on the overview).  [reproject_linear_cases], from which both paths
    start, closes the fourth part. *)
From Coq Require Import ZArith QArith Qround Qabs List Bool Lia Lqa.
From OG Require Import Base.Result Base.QZ Base.QMinMax Model.Roi Model.Overlap Proofs.RoiPointsProofs.
From OG Require Proofs.MathHBasics Proofs.MathHLinear.
Import ListNotations.
Open Scope Q_scope.

(** The terms of the statements in Props/C03.v and C10.v: slices and regions as sets of pixel indices, the
    unit-scale axis, the envelope of sampled values and the margin by which it misses an image, the
    hypothesis on the sampled boundary, and compute_reproject_roi's padding, overview shape and tolerances. *)

Definition in_sl (sl : Z * Z) (i : Z) : Prop := (fst sl <= i < snd sl)%Z.
Definition sl_within (sl : Z * Z) (n : Z) : Prop := (0 <= fst sl <= snd sl)%Z /\ (snd sl <= n)%Z.
Definition sl_empty (sl : Z * Z) : Prop := snd sl = fst sl.

Definition unit_q (flip : bool) : Q := if flip then inject_Z (-1) else inject_Z 1.
(** on an axis of scale [+1] or [-1] ([flip]) and integer shift [T] the centre of destination pixel [d]
    falls on the centre of source pixel [nn_unit T flip d] ([nn_unit_half]) *)
Definition nn_unit (T : Z) (flip : bool) (d : Z) : Z := if flip then (T - 1 - d)%Z else (d + T)%Z.

(** what compute_axis_overlap returns on such an axis: slices within the two images and of equal length,
    the destination slice holding exactly the pixels whose source pixel exists, and the paste
    [dst[dst_sl] = src[src_sl]] (reversed under [flip]) copying to [d] from that source pixel *)
Definition axis_unit_facts (Ns Nd T : Z) (flip : bool) (src dst : Z * Z) : Prop :=
  sl_within src Ns /\ sl_within dst Nd /\
  (snd src - fst src = snd dst - fst dst)%Z /\
  (forall d, (0 <= d < Nd)%Z -> (in_sl dst d <-> (0 <= nn_unit T flip d < Ns)%Z)) /\
  (forall d, in_sl dst d -> paste_index src dst flip d = nn_unit T flip d /\ in_sl src (nn_unit T flip d)).

Definition in_roi (r : roi2) (ky kx : Z) : Prop := in_sl (fst r) ky /\ in_sl (snd r) kx.
Definition roi_within (r : roi2) (shape : shape2) : Prop :=
  sl_within (fst r) (fst shape) /\ sl_within (snd r) (snd shape).
(** the four ends lie in the image; nothing is said of their order *)
Definition roi_in (r : roi2) (shape : shape2) : Prop :=
  (0 <= fst (fst r) <= fst shape /\ 0 <= snd (fst r) <= fst shape /\
   0 <= fst (snd r) <= snd shape /\ 0 <= snd (snd r) <= snd shape)%Z.

Definition xs_of (pts : list (option (Q * Q))) : list Q := map fst (keep_finite pts).
Definition ys_of (pts : list (option (Q * Q))) : list Q := map snd (keep_finite pts).

(** [k] lies in the envelope of [vals]: from the floor of the least to the ceiling of the greatest
    value, widened by [pad] at both ends *)
Definition env_has (vals : list Q) (pad k : Z) : Prop :=
  match vals with
  | [] => False
  | v :: vs => (Qfloor (Qmin_list v vs) - pad <= k)%Z /\ (k < Qceiling (Qmax_list v vs) + pad)%Z
  end.

(** how far aligning can move an edge outwards *)
Definition align_slack (align : option Z) : Z := match align with None => 0%Z | Some a => (a - 1)%Z end.

(** the padded envelope of [vals] ends at or before 0, or starts beyond [n] by at least the reach of the
    alignment: then the slice roi_from_points cuts on this axis is empty ([axis_from_points_sep]) *)
Definition axis_sep (vals : list Q) (n pad : Z) (align : option Z) : Prop :=
  match vals with
  | [] => True
  | v :: vs => (Qceiling (Qmax_list v vs) + pad <= 0)%Z \/
               (n + align_slack align <= Qfloor (Qmin_list v vs) - pad)%Z
  end.

Definition pix_center (dy dx : Z) : Q * Q := (inject_Z dx + (1#2), inject_Z dy + (1#2)).
Definition pt_eq (p q : Q * Q) : Prop := fst p == fst q /\ snd p == snd q.
Definition inverse_of (F A : affine) : Prop := forall p, pt_eq (aff_apply F (aff_apply A p)) p.

(** H_boundary_encloses: the padded envelope of the sampled destination boundary (projected into
    the source) contains every needed source pixel, and the envelope of the sampled boundary of the
    planned source region (projected back) contains the destination pixel. *)
Definition boundary_encloses (back fwd : ptrans) (ss ds : shape2) (padding : Z) (align : option Z) : Prop :=
  let pts1 := map back (boundary_pts ((0%Z, fst ds), (0%Z, snd ds)) 5) in
  let roi_s := roi_from_points pts1 (fst ss) (snd ss) padding align in
  let pts2 := map fwd (boundary_pts roi_s 5) in
  forall dy dx p, (0 <= dy < fst ds)%Z -> (0 <= dx < snd ds)%Z ->
    back (pix_center dy dx) = Some p ->
    0 <= fst p -> fst p < inject_Z (snd ss) -> 0 <= snd p -> snd p < inject_Z (fst ss) ->
    env_has (xs_of pts1) padding (Qfloor (fst p)) /\ env_has (ys_of pts1) padding (Qfloor (snd p)) /\
    env_has (xs_of pts2) 0 dx /\ env_has (ys_of pts2) 0 dy.

(** compute_reproject_roi: [padding = 1 if padding is None else padding] on the sampled paths; on the
    paste path the shape of [src.zoom_out(read_shrink)] and [scaled_up_roi(roi_src, read_shrink)], both
    skipped by the code when [read_shrink == 1] *)
Definition pad_default (padding : option Z) : Z := match padding with None => 1%Z | Some p => p end.
Definition src_dims (ss : shape2) (k : Z) : shape2 :=
  if (k =? 1)%Z then ss else (zoom_out_dim (fst ss) k, zoom_out_dim (snd ss) k).
Definition up_roi (r : roi2) (k : Z) : roi2 :=
  if (k =? 1)%Z then r else (scaled_up_slice (fst r) k None, scaled_up_slice (snd r) k None).

(** what the paste path needs of the tolerances: a scale within [stol] of +-1 snaps to it; _pick_read_scale
    has a positive tolerance; and is_affine_st (default 1e-10) is at least as strict as the rotation
    test of snap_affine (1e-8), so that snap_affine does snap every transform _can_paste accepted *)
Definition tol_ok (c : consts) (stol : Q) : Prop :=
  0 < stol /\ stol <= half /\ 0 < c_rs c /\ c_st c <= c_snap c.

(** odc.geo.math as the planner uses it.  Model/Overlap.v has its own copies of the helpers of Model/MathH.v;
    each equals its twin (the O_ equations), which brings over what Proofs/MathHBasics.v proves of
    split_float, maybe_int and is_almost_int; snap_scale near +-1 and _pick_read_scale follow. *)

Lemma Qltb_spec x y : BoolSpec (x < y) (y <= x) (Qltb x y).
Proof. exact (Qlt_bool_spec x y). Qed.

Lemma Qminq_spec x y : (Qminq x y == x \/ Qminq x y == y) /\ Qminq x y <= x /\ Qminq x y <= y.
Proof.
  unfold Qminq. destruct (Qltb_spec y x); (split; [(left; reflexivity) || (right; reflexivity) | split; lra]).
Qed.

(* Model.MathH has the same helpers; its truncation tests the sign the other way round *)
Lemma O_Qtrunc x : Qtrunc x = MathH.Qtrunc x.
Proof. unfold Qtrunc, Qltb, MathH.Qtrunc. destruct (Qle_bool 0 x); reflexivity. Qed.

Lemma O_fmod1 x : fmod1 x = MathH.fmod1 x.
Proof. unfold fmod1. rewrite O_Qtrunc. reflexivity. Qed.

Lemma O_split_float x : split_float x = MathH.split_float x.
Proof. unfold split_float. rewrite O_fmod1. reflexivity. Qed.

Lemma O_maybe_int_opt x tol : maybe_int_opt x tol = MathH.maybe_int_z x tol.
Proof.
  unfold maybe_int_opt, MathH.maybe_int_z. rewrite O_split_float.
  destruct (MathH.split_float x). rewrite O_Qtrunc. reflexivity.
Qed.

Lemma O_maybe_int x tol : maybe_int x tol = MathH.maybe_int x tol.
Proof. unfold maybe_int. rewrite O_maybe_int_opt. reflexivity. Qed.

Lemma O_is_almost_int x tol : is_almost_int x tol = MathH.is_almost_int x tol.
Proof. unfold is_almost_int. rewrite O_fmod1. reflexivity. Qed.

Lemma Qtrunc_Z z : Qtrunc (inject_Z z) = z.
Proof. rewrite O_Qtrunc. apply MathHBasics.Qtrunc_Z. Qed.

Lemma split_float_spec x :
  exists z, fst (split_float x) == inject_Z z /\ x == inject_Z z + snd (split_float x) /\
            - half <= snd (split_float x) /\ snd (split_float x) <= half.
Proof.
  rewrite O_split_float. destruct (MathHBasics.split_float_char x) as (z & Hw & Hp & H1 & H2).
  exists z. rewrite Hp. unfold half. repeat split; [exact Hw | lra..].
Qed.

Lemma maybe_int_opt_spec x tol :
  match maybe_int_opt x tol with
  | Some z => Qabs (x - inject_Z z) < tol /\ Qabs (x - inject_Z z) <= half
  | None => forall z : Z, tol <= Qabs (x - inject_Z z)
  end.
Proof.
  rewrite O_maybe_int_opt. destruct (MathH.maybe_int_z x tol) as [z|] eqn:E.
  - apply MathHBasics.maybe_int_z_some in E. destruct E as (E & H1 & H2).
    split; [exact E | apply Qabs_Qle_condition; unfold half; lra].
  - exact (MathHBasics.maybe_int_z_none x tol E).
Qed.

Lemma maybe_int_near x tol z0 :
  Qabs (x - inject_Z z0) < tol ->
  exists z, maybe_int x tol = inject_Z z /\ Qabs (x - inject_Z z) < tol /\ Qabs (x - inject_Z z) <= half.
Proof.
  intros H. unfold maybe_int. pose proof (maybe_int_opt_spec x tol) as M.
  destruct (maybe_int_opt x tol) as [z|].
  - exists z. split; [reflexivity | exact M].
  - specialize (M z0). lra.
Qed.

Lemma maybe_int_unique x tol (k : Z) :
  tol <= half -> Qabs (x - inject_Z k) < tol -> maybe_int x tol = inject_Z k.
Proof.
  unfold half. intros Ht H. destruct (maybe_int_near x tol k H) as (z & -> & _ & Hz). f_equal.
  apply Qabs_Qlt_condition in H. apply Qabs_Qle_condition in Hz. unfold half in Hz.
  apply inject_Z_close; lra.
Qed.

Lemma is_almost_int_near x tol : is_almost_int x tol = true -> exists z : Z, Qabs (x - inject_Z z) < tol.
Proof. rewrite O_is_almost_int. apply MathHBasics.is_almost_int_within. Qed.

Lemma snap_scale_unit s stol :
  stol <= half -> Qabs (Qabs s - 1) < stol -> snap_scale s stol = unit_q (Qltb s 0).
Proof.
  intros H1 H. unfold snap_scale, half in *. apply Qabs_Qlt_condition in H.
  assert (E : Qle_bool (1 - stol) (Qabs s) = true) by (apply Qle_bool_iff; lra). rewrite E.
  unfold unit_q. destruct (Qltb_spec s 0); (apply maybe_int_unique; [exact H1|]);
    revert H; apply Qabs_case; intros; apply Qabs_Qlt_condition;
    change (inject_Z (-1)) with (-(1)); change (inject_Z 1) with 1; lra.
Qed.

Lemma pick_read_scale_spec scale tol k :
  0 < tol -> pick_read_scale scale tol = Ok k ->
  0 < scale /\ (1 <= k)%Z /\ (scale < 1 -> k = 1%Z) /\
  (1 <= scale -> inject_Z k - tol < scale /\ scale < inject_Z k + 1).
Proof.
  intros Htol. unfold pick_read_scale.
  destruct (Qltb_spec 0 scale) as [E0 | E0]; [|discriminate]. cbn [negb].
  destruct (Qltb_spec scale 1) as [E1 | E1]; intros H; injection H as <-.
  - repeat split; try lra; try lia.
  - split; [exact E0|].
    unfold maybe_int. pose proof (maybe_int_opt_spec scale tol) as M.
    destruct (maybe_int_opt scale tol) as [z|].
    + rewrite Qtrunc_Z. destruct M as [M1 M2].
      apply Qabs_Qlt_condition in M1. apply Qabs_Qle_condition in M2. unfold half in *.
      assert (0 < z)%Z by (rewrite Zlt_Qlt; change (inject_Z 0) with 0; lra).
      repeat split; try lia; try lra.
    + unfold Qtrunc. destruct (Qltb_spec scale 0); [lra|].
      destruct (Qfloor_spec scale) as (f & Ef & F1 & F2).
      assert (1 <= Qfloor scale)%Z by (apply Qfloor_ge_iff; change (inject_Z 1) with 1; lra).
      rewrite <- Ef. repeat split; try lia; try lra.
Qed.

Lemma pick_read_scale_err scale tol : scale <= 0 -> pick_read_scale scale tol = Err (EAssert 341).
Proof.
  intros H. unfold pick_read_scale. destruct (Qltb_spec 0 scale); [lra | reflexivity].
Qed.

(** One axis.  compute_axis_overlap in closed form: each slice is an interval of reals (the image of the
    destination extent, the preimage of the source extent) rounded outwards and clipped ([clip_sl]); the
    mirrored case is the unmirrored one read from the far end.  At scale +-1 and integer shift the ends
    are integers and [axis_unit_facts] holds ([axis_unit]). *)

(** pixel [k] meets the interval (lo, hi): it lies in the interval rounded outwards *)
Lemma outward_has lo hi k : lo < inject_Z k + 1 -> inject_Z k < hi -> (Qfloor lo <= k < Qceiling hi)%Z.
Proof.
  intros H1 H2.
  assert (Qfloor lo < k + 1)%Z by (apply Qfloor_lt_iff; rewrite inject_Z_plus; exact H1).
  assert (k < Qceiling hi)%Z by (apply Qceiling_gt_iff; exact H2). lia.
Qed.

Definition clip_sl (lo hi : Q) (N : Z) : Z * Z := (clipZ (Qfloor lo) 0 N, clipZ (Qceiling hi) 0 N).

Lemma clip_sl_ext lo lo' hi hi' N : lo == lo' -> hi == hi' -> clip_sl lo hi N = clip_sl lo' hi' N.
Proof. intros El Eh. unfold clip_sl. rewrite (Qfloor_comp _ _ El), (Qceiling_comp _ _ Eh). reflexivity. Qed.

Lemma clip_sl_Z (a b : Z) lo hi N :
  lo == inject_Z a -> hi == inject_Z b -> clip_sl lo hi N = (clipZ a 0 N, clipZ b 0 N).
Proof.
  intros Ea Eb. rewrite (clip_sl_ext _ _ _ _ N Ea Eb). unfold clip_sl. rewrite Qfloor_Z, Qceiling_Z. reflexivity.
Qed.

Lemma clip_sl_within lo hi N : (0 <= N)%Z -> lo <= hi -> sl_within (clip_sl lo hi N) N.
Proof.
  intros HN H.
  assert (Qfloor lo <= Qceiling hi)%Z.
  { apply Z.le_trans with (Qfloor hi); [apply Qfloor_resp_le; exact H | apply Qfloor_le_ceiling]. }
  pose proof (clipZ_range (Qfloor lo) 0 N HN). pose proof (clipZ_range (Qceiling hi) 0 N HN).
  pose proof (clipZ_mono (Qfloor lo) (Qceiling hi) 0 N).
  unfold sl_within, clip_sl. cbn [fst snd]. lia.
Qed.

Lemma clip_sl_in lo hi N k :
  lo < inject_Z k + 1 -> inject_Z k < hi -> (0 <= k < N)%Z -> in_sl (clip_sl lo hi N) k.
Proof.
  intros H1 H2 Hk. pose proof (outward_has lo hi k H1 H2).
  assert (clipZ (Qfloor lo) 0 N <= k)%Z by (apply clipZ_le; lia).
  assert (k + 1 <= clipZ (Qceiling hi) 0 N)%Z by (apply clipZ_ge; lia).
  unfold in_sl, clip_sl. cbn [fst snd]. lia.
Qed.

Lemma clip_sl_empty lo hi N :
  (0 <= N)%Z -> lo <= hi -> hi <= 0 \/ inject_Z N <= lo -> sl_empty (clip_sl lo hi N).
Proof.
  intros HN H Hd. destruct (clip_sl_within lo hi N HN H) as [W1 W2].
  unfold sl_empty, clip_sl in *. cbn [fst snd] in *. destruct Hd as [Hd | Hd].
  - assert (clipZ (Qceiling hi) 0 N <= 0)%Z by (apply clipZ_le; [lia | apply Qceiling_le_iff; exact Hd]). lia.
  - assert (N <= clipZ (Qfloor lo) 0 N)%Z by (apply clipZ_ge; [lia | apply Qfloor_ge_iff; exact Hd]). lia.
Qed.

Lemma clip_sl_mirror lo hi N : (0 <= N)%Z ->
  ((N - snd (clip_sl lo hi N))%Z, (N - fst (clip_sl lo hi N))%Z) = clip_sl (inject_Z N - hi) (inject_Z N - lo) N.
Proof.
  intros HN. unfold clip_sl. cbn [fst snd].
  assert (E1 : Qfloor (inject_Z N - hi) = (N - Qceiling hi)%Z).
  { apply Qfloor_eq_iff. destruct (Qceiling_spec hi) as (c & Ec & C1 & C2).
    rewrite inject_Z_sub, <- Ec. split; lra. }
  assert (E2 : Qceiling (inject_Z N - lo) = (N - Qfloor lo)%Z).
  { unfold Qceiling. rewrite (Qfloor_comp (- (inject_Z N - lo)) (lo - inject_Z N)) by ring.
    assert (E : Qfloor (lo - inject_Z N) = (Qfloor lo - N)%Z); [|lia].
    apply Qfloor_eq_iff. destruct (Qfloor_spec lo) as (f & Ef & F1 & F2).
    rewrite inject_Z_sub, <- Ef. split; lra. }
  rewrite E1, E2. unfold clipZ. f_equal; lia.
Qed.

Lemma axis_core_clip Ns Nd s t :
  (0 <= Ns)%Z -> (0 <= Nd)%Z -> 0 < s ->
  let '(in_s, out_s, in_d, out_d) := axis_core Ns Nd s t in
  (in_s, out_s) = clip_sl t (inject_Z Nd * s + t) Ns /\
  (in_d, out_d) = clip_sl ((0 - t) / s) ((inject_Z Ns - t) / s) Nd.
Proof.
  intros HNs HNd Hs. unfold axis_core, clip_sl.
  rewrite (Qfloor_comp (- t * (1 / s)) ((0 - t) / s)) by (field; lra).
  rewrite (Qceiling_comp (inject_Z Ns * (1 / s) + - t * (1 / s)) ((inject_Z Ns - t) / s)) by (field; lra).
  (* [axis_core] clamps each end on one side only, according to the branch taken; F1-F4 say,
     branch by branch, that the clamp it leaves out would not act *)
  assert (F1 : t < 0 -> (Qfloor t < 0 <= Qfloor ((0 - t) / s))%Z).
  { intros Ht. split; [apply Qfloor_lt_iff; exact Ht | apply Qfloor_ge_iff; change (inject_Z 0) with 0; apply Qle_shift_div_l; lra]. }
  assert (F2 : 0 <= t -> (Qfloor ((0 - t) / s) <= 0 <= Qfloor t)%Z).
  { intros Ht. split; [apply Qfloor_le_Z; change (inject_Z 0) with 0; apply Qle_shift_div_r; lra | apply Qfloor_ge_iff; exact Ht]. }
  assert (F3 : (Qceiling (inject_Z Nd * s + t) <= Ns)%Z -> (Nd <= Qceiling ((inject_Z Ns - t) / s))%Z).
  { intros H. apply Qceiling_le_iff in H. apply Qceiling_ge, Qle_shift_div_l; lra. }
  assert (F4 : (Ns < Qceiling (inject_Z Nd * s + t))%Z -> (Qceiling ((inject_Z Ns - t) / s) <= Nd)%Z).
  { intros H. apply Qceiling_gt_iff in H. apply Qceiling_le_iff, Qle_shift_div_r; lra. }
  destruct (Qltb_spec t 0) as [Ht | Ht]; [specialize (F1 Ht) | specialize (F2 Ht)];
    (destruct (Z.leb_spec (Qceiling (inject_Z Nd * s + t)) Ns) as [Ha | Ha]; [specialize (F3 Ha) | specialize (F4 Ha)]);
    (unfold clipZ; split; f_equal; lia).
Qed.

Lemma axis_overlap_pos Ns Nd s t :
  (0 <= Ns)%Z -> (0 <= Nd)%Z -> 0 < s ->
  axis_overlap Ns Nd s t =
  Ok (clip_sl t (inject_Z Nd * s + t) Ns, clip_sl ((0 - t) / s) ((inject_Z Ns - t) / s) Nd).
Proof.
  intros HNs HNd Hs. unfold axis_overlap.
  destruct (Qltb_spec s 0); [lra|]. destruct (Qltb_spec 0 s); [|lra]. cbn [negb].
  pose proof (axis_core_clip Ns Nd s t HNs HNd Hs) as E.
  destruct (axis_core Ns Nd s t) as [[[in_s out_s] in_d] out_d]. destruct E as [<- <-]. reflexivity.
Qed.

Lemma axis_overlap_mirror Ns Nd s t :
  s < 0 ->
  axis_overlap Ns Nd s t =
  match axis_overlap Ns Nd (- s) (inject_Z Ns - t) with
  | Ok (src, dst) => Ok (((Ns - snd src)%Z, (Ns - fst src)%Z), dst)
  | Err e => Err e
  end.
Proof.
  intros Hs. unfold axis_overlap.
  destruct (Qltb_spec s 0); [|lra]. destruct (Qltb_spec (- s) 0); [lra|].
  destruct (Qltb_spec 0 (- s)); [|lra]. cbn [negb].
  destruct (axis_core Ns Nd (- s) (inject_Z Ns - t)) as [[[in_s out_s] in_d] out_d]. reflexivity.
Qed.

Lemma axis_overlap_neg Ns Nd s t :
  (0 <= Ns)%Z -> (0 <= Nd)%Z -> s < 0 ->
  axis_overlap Ns Nd s t =
  Ok (clip_sl (inject_Z Nd * s + t) t Ns, clip_sl ((t - inject_Z Ns) / - s) (t / - s) Nd).
Proof.
  intros HNs HNd Hs. rewrite (axis_overlap_mirror _ _ _ _ Hs), axis_overlap_pos by (assumption || lra).
  cbv beta iota. rewrite (clip_sl_mirror _ _ _ HNs). do 2 f_equal; apply clip_sl_ext; try ring; field; lra.
Qed.

Lemma axis_overlap_spec Ns Nd s t :
  (0 <= Ns)%Z -> (0 <= Nd)%Z -> ~ s == 0 ->
  exists src dst, axis_overlap Ns Nd s t = Ok (src, dst) /\
    sl_within src Ns /\ sl_within dst Nd /\
    (forall d, (0 <= d < Nd)%Z ->
       let x := s * (inject_Z d + (1#2)) + t in
       0 <= x -> x < inject_Z Ns -> in_sl dst d /\ in_sl src (Qfloor x)) /\
    ((t <= 0 /\ inject_Z Nd * s + t <= 0) \/ (inject_Z Ns <= t /\ inject_Z Ns <= inject_Z Nd * s + t) ->
       sl_empty src /\ sl_empty dst).
Proof.
  intros HNs HNd Hs0.
  pose proof (inject_Z_ge0 _ HNs) as Ns0. pose proof (inject_Z_ge0 _ HNd) as Nd0.
  (* a pixel centre is strictly inside [0, Nd], so its image is strictly between those of the ends *)
  assert (Hc : forall d s', (0 <= d < Nd)%Z -> 0 < s' ->
            0 < s' * (inject_Z d + (1#2)) /\ 0 < s' * (inject_Z Nd - (inject_Z d + (1#2)))).
  { intros d s' [D0 D1] Hs'. apply inject_Z_ge0 in D0. apply inject_Z_succ_le in D1.
    split; apply Qmult_lt_0_compat; lra. }
  destruct (Q_dec s 0) as [[Hs | Hs] | Hs]; [| |contradiction]; eexists _, _.
  - split; [apply axis_overlap_neg; assumption|].
    assert (L1 : (t - inject_Z Ns) / - s <= t / - s).
    { apply Qmult_le_compat_r; [lra | apply Qinv_le_0_compat; lra]. }
    split; [apply clip_sl_within; [assumption | nra]|]. split; [apply clip_sl_within; assumption|]. split.
    + intros d Hd x X0 X1. destruct (Hc d (- s) Hd ltac:(lra)) as [C0 C1]. pose proof (Qfloor_range x Ns X0 X1) as Kx.
      destruct (Qfloor_spec x) as (f & -> & F1 & F2). unfold x in *. split; apply clip_sl_in; try assumption; try lra.
      * apply Qlt_shift_div_r; lra.
      * apply Qlt_shift_div_l; lra.
    + intros Hd. split; apply clip_sl_empty; try assumption; try nra.
      destruct Hd as [Hd | Hd]; [left; apply Qle_shift_div_r | right; apply Qle_shift_div_l]; lra.
  - split; [apply axis_overlap_pos; assumption|].
    assert (L1 : (0 - t) / s <= (inject_Z Ns - t) / s).
    { apply Qmult_le_compat_r; [lra | apply Qinv_le_0_compat; lra]. }
    split; [apply clip_sl_within; [assumption | nra]|]. split; [apply clip_sl_within; assumption|]. split.
    + intros d Hd x X0 X1. destruct (Hc d s Hd Hs) as [C0 C1]. pose proof (Qfloor_range x Ns X0 X1) as Kx.
      destruct (Qfloor_spec x) as (f & -> & F1 & F2). unfold x in *. split; apply clip_sl_in; try assumption; try lra.
      * apply Qlt_shift_div_r; lra.
      * apply Qlt_shift_div_l; lra.
    + intros Hd. split; apply clip_sl_empty; try assumption; try nra.
      destruct Hd as [Hd | Hd]; [right; apply Qle_shift_div_l | left; apply Qle_shift_div_r]; lra.
Qed.

Lemma unit_facts_clip Ns Nd T :
  (0 <= Ns)%Z -> (0 <= Nd)%Z ->
  axis_unit_facts Ns Nd T false (clipZ T 0 Ns, clipZ (Nd + T) 0 Ns) (clipZ (- T) 0 Nd, clipZ (Ns - T) 0 Nd).
Proof.
  intros HNs HNd. unfold axis_unit_facts, sl_within, in_sl, paste_index, nn_unit. cbn [fst snd].
  split; [|split; [|split; [|split]]].
  - pose proof (clipZ_range T 0 Ns HNs). pose proof (clipZ_range (Nd + T) 0 Ns HNs).
    pose proof (clipZ_mono T (Nd + T) 0 Ns). lia.
  - pose proof (clipZ_range (- T) 0 Nd HNd). pose proof (clipZ_range (Ns - T) 0 Nd HNd).
    pose proof (clipZ_mono (- T) (Ns - T) 0 Nd). lia.
  - (* both sides count the i with 0 <= i < Ns and T <= i < T + Nd, once from either image *)
    rewrite !clipZ_width by lia. lia.
  - intros d Hd. destruct (clipZ_in (- T) Nd d Hd) as [-> _]. destruct (clipZ_in (Ns - T) Nd d Hd) as [_ ->]. lia.
  - intros d Hd.
    assert (Hd' : (0 <= d < Nd)%Z).
    { pose proof (clipZ_range (- T) 0 Nd HNd). pose proof (clipZ_range (Ns - T) 0 Nd HNd). lia. }
    destruct (clipZ_in (- T) Nd d Hd') as [E1 _]. destruct (clipZ_in (Ns - T) Nd d Hd') as [_ E2].
    assert (Hn : (0 <= d + T < Ns)%Z) by lia.
    destruct (clipZ_in T Ns _ Hn) as [-> _]. destruct (clipZ_in (Nd + T) Ns _ Hn) as [_ ->].
    rewrite (clipZ_lo T Ns _ Hn), (clipZ_lo (- T) Nd d Hd') by lia. lia.
Qed.

Lemma axis_unit_pos Ns Nd T s t :
  (0 <= Ns)%Z -> (0 <= Nd)%Z -> s == 1 -> t == inject_Z T ->
  exists src dst, axis_overlap Ns Nd s t = Ok (src, dst) /\ axis_unit_facts Ns Nd T false src dst.
Proof.
  intros HNs HNd Es Et. eexists _, _. split; [apply axis_overlap_pos; assumption || lra|].
  rewrite (clip_sl_Z T (Nd + T)), (clip_sl_Z (- T) (Ns - T)).
  - apply unit_facts_clip; assumption.
  - rewrite inject_Z_opp, Es, Et. field.
  - rewrite inject_Z_sub, Es, Et. field.
  - exact Et.
  - rewrite inject_Z_plus, Es, Et. ring.
Qed.

Lemma axis_unit Ns Nd T flip :
  (0 <= Ns)%Z -> (0 <= Nd)%Z ->
  exists src dst, axis_overlap Ns Nd (unit_q flip) (inject_Z T) = Ok (src, dst) /\
                  axis_unit_facts Ns Nd T flip src dst.
Proof.
  intros HNs HNd. destruct flip; [|apply axis_unit_pos; (assumption || reflexivity)].
  (* the overlap for the shift [Ns - T] with its source slice mirrored *)
  rewrite axis_overlap_mirror by reflexivity.
  destruct (axis_unit_pos Ns Nd (Ns - T) (- unit_q true) (inject_Z Ns - inject_Z T) HNs HNd)
    as (src & dst & -> & W1 & W2 & U1 & U2 & U3).
  { reflexivity. }
  { symmetry. apply inject_Z_sub. }
  eexists _, _. split; [reflexivity|].
  unfold axis_unit_facts, sl_within, in_sl, paste_index, nn_unit in *. cbn [fst snd] in *.
  split; [lia|]. split; [exact W2|]. split; [lia|]. split.
  - intros d Hd. rewrite (U2 d Hd). lia.
  - intros d Hd. destruct (U3 d Hd). lia.
Qed.

Lemma nn_unit_half T f d :
  unit_q f * (inject_Z d + (1#2)) + inject_Z T == inject_Z (nn_unit T f d) + (1#2).
Proof.
  unfold nn_unit, unit_q. destruct f.
  - unfold Z.sub. rewrite !inject_Z_plus, !inject_Z_opp. change (inject_Z (-1)) with (-(1)). change (inject_Z 1) with 1. ring.
  - rewrite !inject_Z_plus. change (inject_Z 1) with 1. ring.
Qed.

(** The sampled path.  roi_from_points holds every pixel of the padded envelope of its points and is empty
    when the envelope misses the image; _relative_rois is two such envelopes.  For an affine map the
    corner values bound the values on the whole rectangle (Section Rect), so the envelopes hold what they
    should ([affine_rois_incl]).  Last, which path compute_reproject_roi took and what it returns on this one. *)

Lemma env_has_0 v vs k :
  Qmin_list v vs < inject_Z k + 1 -> inject_Z k < Qmax_list v vs -> env_has (v :: vs) 0 k.
Proof. intros H1 H2. pose proof (outward_has _ _ k H1 H2). cbn [env_has]. lia. Qed.

Lemma env_has_pad vals k j pad :
  env_has vals 0 k -> (k - pad <= j <= k + pad)%Z -> env_has vals pad j.
Proof.
  unfold env_has. destruct vals as [|v vs]; [tauto|]. lia.
Qed.

Lemma axis_from_points_env vals n padding align lim (k : Z) :
  (0 <= padding)%Z -> align_ok align -> (n < lim)%Z ->
  env_has vals padding k -> (0 <= k < n)%Z ->
  in_sl (axis_from_points vals n padding align lim) k.
Proof.
  intros Hp Ha Hlim He Hk. destruct vals as [|v0 vs]; [destruct He|]. destruct He as [H1 H2].
  destruct (axis_from_points_bounds v0 vs n padding align lim Ha) as (lo & hi & -> & (_ & Hlo & _) & (_ & Hhi & _)).
  assert (Qclip_floor (Qmin_list v0 vs) lim <= k + padding)%Z by (apply clipZ_le; lia).
  assert (k + 1 - padding <= Qclip_ceil (Qmax_list v0 vs) lim)%Z by (apply clipZ_ge; lia).
  assert (clipZ lo 0 n <= k)%Z by (apply clipZ_le; lia).
  assert (k + 1 <= clipZ hi 0 n)%Z by (apply clipZ_ge; lia).
  unfold in_sl. cbn [fst snd]. lia.
Qed.

Lemma axis_from_points_sep vals n padding align lim :
  (0 <= n)%Z -> align_ok align -> (0 <= padding <= lim)%Z ->
  (n + align_slack align <= lim - padding)%Z ->
  axis_sep vals n padding align ->
  let r := axis_from_points vals n padding align lim in (snd r - fst r <= 0)%Z.
Proof.
  intros Hn Ha Hp Hl Hs. destruct vals as [|v vs]; [cbn; lia|].
  destruct (axis_from_points_bounds v vs n padding align lim Ha) as (lo & hi & -> & (_ & _ & Hlo) & (Hm & _ & Hhi)).
  assert (Ea : fill align 1 = (align_slack align + 1)%Z) by (destruct align; cbn; lia).
  rewrite Ea in *. cbn [fst snd].
  pose proof (clipZ_range lo 0 n Hn). pose proof (clipZ_range hi 0 n Hn).
  destruct Hs as [Hs | Hs].
  - assert (Qclip_ceil (Qmax_list v vs) lim <= - padding)%Z by (apply clipZ_le; lia).
    (* [hi] is a multiple of the alignment and less than it *)
    assert (hi <= 0)%Z.
    { destruct (Z_le_gt_dec hi 0); [assumption|]. rewrite Z.mod_small in Hm by lia. lia. }
    assert (clipZ hi 0 n <= 0)%Z by (apply clipZ_le; lia). lia.
  - assert (n + align_slack align + padding <= Qclip_floor (Qmin_list v vs) lim)%Z by (apply clipZ_ge; lia).
    assert (n <= clipZ lo 0 n)%Z by (apply clipZ_ge; lia). lia.
Qed.

Lemma lin_end a x X0 X1 : X0 <= x -> x <= X1 ->
  exists cx, (cx = X0 \/ cx = X1) /\ a * x <= a * cx /\ (X0 < x -> x < X1 -> ~ a == 0 -> a * x < a * cx).
Proof.
  intros H0 H1. destruct (Qlt_le_dec a 0) as [Ha | Ha]; [exists X0 | exists X1];
    (split; [auto|]); split; intros; nra.
Qed.

Section Rect.
  Variables (a b c X0 X1 Y0 Y1 px py : Q).
  Let g (x y : Q) : Q := a * x + b * y + c.
  Hypothesis HX : X0 <= px /\ px <= X1.
  Hypothesis HY : Y0 <= py /\ py <= Y1.

  Definition corner_vals : list Q := [g X0 Y0; g X1 Y0; g X1 Y1; g X0 Y1].

  Lemma rect_in_corners cx cy : (cx = X0 \/ cx = X1) -> (cy = Y0 \/ cy = Y1) -> In (g cx cy) corner_vals.
  Proof. unfold corner_vals. intros [-> | ->] [-> | ->]; simpl; auto. Qed.

  Lemma rect_max :
    g px py <= Qmax_list (g X0 Y0) [g X1 Y0; g X1 Y1; g X0 Y1] /\
    (X0 < px -> px < X1 -> Y0 < py -> py < Y1 -> ~ (a == 0 /\ b == 0) ->
     g px py < Qmax_list (g X0 Y0) [g X1 Y0; g X1 Y1; g X0 Y1]).
  Proof.
    destruct (lin_end a px X0 X1) as (cx & Hx & Lx & Sx); try apply HX.
    destruct (lin_end b py Y0 Y1) as (cy & Hy & Ly & Sy); try apply HY.
    pose proof (Qmax_list_ub _ _ _ (rect_in_corners cx cy Hx Hy)) as U. unfold g in *. split; [lra|].
    intros x0 x1 y0 y1 Hab. destruct (Qeq_dec a 0) as [Ea | Na].
    - assert (Nb : ~ b == 0) by tauto. specialize (Sy y0 y1 Nb). lra.
    - specialize (Sx x0 x1 Na). lra.
  Qed.

  Lemma rect_ge_min : Qmin_list (g X0 Y0) [g X1 Y0; g X1 Y1; g X0 Y1] <= g px py.
  Proof.
    destruct (lin_end (- a) px X0 X1) as (cx & Hx & Lx & _); try apply HX.
    destruct (lin_end (- b) py Y0 Y1) as (cy & Hy & Ly & _); try apply HY.
    eapply Qle_trans; [apply Qmin_list_lb, (rect_in_corners cx cy Hx Hy)|]. unfold g. lra.
  Qed.

  (** the upper bound of [rect_max] has to be strict here, since the value may be an integer *)
  Lemma rect_env_floor :
    X0 < px -> px < X1 -> Y0 < py -> py < Y1 -> ~ (a == 0 /\ b == 0) ->
    env_has corner_vals 0 (Qfloor (g px py)).
  Proof.
    intros x0 x1 y0 y1 Hab. pose proof rect_ge_min. pose proof (proj2 rect_max x0 x1 y0 y1 Hab).
    destruct (Qfloor_spec (g px py)) as (f & -> & F1 & F2). apply env_has_0; lra.
  Qed.

  Lemma rect_env_center d : g px py == inject_Z d + (1#2) -> env_has corner_vals 0 d.
  Proof. intros E. pose proof rect_ge_min. pose proof (proj1 rect_max). apply env_has_0; lra. Qed.
End Rect.

Lemma roi_empty_true_iff r :
  roi_empty r = true <-> (snd (fst r) - fst (fst r) <= 0 \/ snd (snd r) - fst (snd r) <= 0)%Z.
Proof.
  destruct r as [[y0 y1] [x0 x1]]. unfold roi_empty. cbn [fst snd]. rewrite orb_true_iff, !Z.leb_le. tauto.
Qed.

Lemma in_roi_nonempty r ky kx : in_roi r ky kx -> roi_empty r = false.
Proof.
  intros [Hy Hx]. apply not_true_is_false. rewrite roi_empty_true_iff. unfold in_sl in *. lia.
Qed.

Lemma roi_from_points_env pts ny nx padding align ky kx :
  (0 <= padding)%Z -> align_ok align ->
  env_has (xs_of pts) padding kx -> env_has (ys_of pts) padding ky ->
  (0 <= kx < nx)%Z -> (0 <= ky < ny)%Z ->
  in_roi (roi_from_points pts ny nx padding align) ky kx.
Proof.
  intros Hp Ha Ex Ey Hkx Hky.
  destruct (roi_from_points_axes pts ny nx padding align) as (lim & -> & L). destruct (L Hp Ha) as [L1 L2].
  split; apply axis_from_points_env; assumption.
Qed.

Lemma roi_from_points_in pts sh padding align :
  (0 <= fst sh)%Z -> (0 <= snd sh)%Z -> roi_in (roi_from_points pts (fst sh) (snd sh) padding align) sh.
Proof.
  intros Hy Hx. destruct (roi_from_points_axes pts (fst sh) (snd sh) padding align) as (lim & -> & _).
  destruct (axis_from_points_within (map snd (keep_finite pts)) (fst sh) padding align lim Hy) as [Y0 Y1].
  destruct (axis_from_points_within (map fst (keep_finite pts)) (snd sh) padding align lim Hx) as [X0 X1].
  exact (conj Y0 (conj Y1 (conj X0 X1))).
Qed.

Lemma roi_from_points_sep pts ny nx padding align :
  (0 <= ny)%Z -> (0 <= nx)%Z -> (0 <= padding)%Z -> align_ok align ->
  axis_sep (xs_of pts) nx padding align \/ axis_sep (ys_of pts) ny padding align ->
  roi_empty (roi_from_points pts ny nx padding align) = true.
Proof.
  intros Hny Hnx Hp Ha Hs. apply roi_empty_true_iff. unfold roi_from_points. cbn [fst snd].
  set (lim := (Z.max nx ny + padding + match align with None => 1 | Some a => a end + 1)%Z).
  assert (L : (0 <= padding <= lim /\ nx + align_slack align <= lim - padding /\
               ny + align_slack align <= lim - padding)%Z) by (destruct align; cbn in *; lia).
  clearbody lim.
  destruct Hs as [H | H]; [right | left]; apply axis_from_points_sep; tauto.
Qed.

(** roi_src of _relative_rois: the envelope without alignment, and the aligned one in its place only
    when that one is not empty *)
Definition src_region (pts : list (option (Q * Q))) (ny nx padding : Z) (align : option Z) : roi2 :=
  let roi_0 := roi_from_points pts ny nx padding None in
  match align with
  | Some _ => if roi_empty roi_0 then roi_0 else roi_from_points pts ny nx padding align
  | None => roi_0
  end.

Lemma src_region_cases pts ny nx padding align :
  (roi_empty (roi_from_points pts ny nx padding None) = true /\
   src_region pts ny nx padding align = roi_from_points pts ny nx padding None) \/
  (roi_empty (roi_from_points pts ny nx padding None) = false /\
   src_region pts ny nx padding align = roi_from_points pts ny nx padding align).
Proof.
  unfold src_region. destruct align as [a|]; destruct (roi_empty (roi_from_points pts ny nx padding None)) eqn:E; auto.
Qed.

Lemma relative_rois_eq back fwd ss ds n padding align :
  relative_rois back fwd ss ds n padding align =
  (let pts := map back (boundary_pts ((0%Z, fst ds), (0%Z, snd ds)) n) in
   let roi_s := src_region pts (fst ss) (snd ss) padding align in
   if roi_empty roi_s then (roi_s, ((0%Z, 0%Z), (0%Z, 0%Z)))
   else (roi_s, roi_from_points (map fwd (boundary_pts roi_s n)) (fst ds) (snd ds) 0 None)).
Proof. reflexivity. Qed.

(* [n] has to be a variable here: with a numeral the case split evaluates [boundary_pts] *)
Lemma relative_rois_fst back fwd ss ds n padding align :
  fst (relative_rois back fwd ss ds n padding align) =
  src_region (map back (boundary_pts ((0%Z, fst ds), (0%Z, snd ds)) n)) (fst ss) (snd ss) padding align.
Proof. rewrite relative_rois_eq. cbv zeta. destruct (roi_empty _); reflexivity. Qed.

Lemma relative_rois_snd back fwd ss ds n padding align :
  snd (relative_rois back fwd ss ds n padding align) =
  if roi_empty (fst (relative_rois back fwd ss ds n padding align)) then ((0, 0), (0, 0))%Z
  else roi_from_points (map fwd (boundary_pts (fst (relative_rois back fwd ss ds n padding align)) n))
                       (fst ds) (snd ds) 0 None.
Proof. rewrite relative_rois_eq. cbv zeta. destruct (roi_empty _) eqn:E; cbn [fst snd]; rewrite E; reflexivity. Qed.

Lemma relative_rois_both (P Q : roi2 -> Prop) back fwd ss ds n padding align :
  (forall pts, P (roi_from_points pts (fst ss) (snd ss) padding None)) ->
  (forall pts, P (roi_from_points pts (fst ss) (snd ss) padding align)) ->
  (forall pts, Q (roi_from_points pts (fst ds) (snd ds) 0 None)) -> Q ((0, 0), (0, 0))%Z ->
  P (fst (relative_rois back fwd ss ds n padding align)) /\
  Q (snd (relative_rois back fwd ss ds n padding align)).
Proof.
  intros P0 Pa Q1 Q0. split.
  - rewrite relative_rois_fst.
    destruct (src_region_cases (map back (boundary_pts ((0%Z, fst ds), (0%Z, snd ds)) n)) (fst ss) (snd ss) padding align)
      as [[_ ->] | [_ ->]]; [apply P0 | apply Pa].
  - rewrite relative_rois_snd. destruct (roi_empty _); [exact Q0 | apply Q1].
Qed.

Lemma relative_rois_within back fwd ss ds n padding align :
  (0 <= fst ss)%Z -> (0 <= snd ss)%Z -> (0 <= fst ds)%Z -> (0 <= snd ds)%Z ->
  roi_in (fst (relative_rois back fwd ss ds n padding align)) ss /\
  roi_in (snd (relative_rois back fwd ss ds n padding align)) ds.
Proof.
  intros S1 S2 D1 D2. apply (relative_rois_both (fun r => roi_in r ss) (fun r => roi_in r ds)).
  1-3: intros pts; apply roi_from_points_in; assumption.
  unfold roi_in. cbn [fst snd]. lia.
Qed.

(* the margin is that of [align = None]: the aligned envelope is computed only when the
   un-aligned one meets the image *)
Lemma relative_rois_sep back fwd ss ds n padding align :
  (0 <= fst ss)%Z -> (0 <= snd ss)%Z -> (0 <= padding)%Z ->
  let pts := map back (boundary_pts ((0%Z, fst ds), (0%Z, snd ds)) n) in
  axis_sep (xs_of pts) (snd ss) padding None \/ axis_sep (ys_of pts) (fst ss) padding None ->
  roi_empty (fst (relative_rois back fwd ss ds n padding align)) = true /\
  snd (relative_rois back fwd ss ds n padding align) = ((0, 0), (0, 0))%Z.
Proof.
  intros S1 S2 Hp pts Hs.
  pose proof (roi_from_points_sep pts (fst ss) (snd ss) padding None S1 S2 Hp I Hs) as E0.
  assert (E : roi_empty (fst (relative_rois back fwd ss ds n padding align)) = true).
  { rewrite relative_rois_fst. fold pts.
    destruct (src_region_cases pts (fst ss) (snd ss) padding align) as [[_ ->] | [C _]]; congruence. }
  split; [exact E|]. rewrite relative_rois_snd, E. reflexivity.
Qed.

Lemma relative_rois_src back fwd ss ds n padding align ky kx :
  (0 <= padding)%Z -> align_ok align ->
  let pts := map back (boundary_pts ((0%Z, fst ds), (0%Z, snd ds)) n) in
  env_has (xs_of pts) padding kx -> env_has (ys_of pts) padding ky ->
  (0 <= kx < snd ss)%Z -> (0 <= ky < fst ss)%Z ->
  fst (relative_rois back fwd ss ds n padding align) = roi_from_points pts (fst ss) (snd ss) padding align /\
  in_roi (roi_from_points pts (fst ss) (snd ss) padding align) ky kx.
Proof.
  intros Hp Ha pts Ex Ey Kx Ky.
  split; [|apply roi_from_points_env; assumption].
  rewrite relative_rois_fst. fold pts.
  destruct (src_region_cases pts (fst ss) (snd ss) padding align) as [[C _] | [_ C]]; [|exact C].
  rewrite (in_roi_nonempty _ ky kx) in C; [discriminate|]. apply roi_from_points_env; try assumption. exact I.
Qed.

Lemma relative_rois_dst back fwd ss ds n padding align dy dx :
  roi_empty (fst (relative_rois back fwd ss ds n padding align)) = false ->
  let pts := map fwd (boundary_pts (fst (relative_rois back fwd ss ds n padding align)) n) in
  env_has (xs_of pts) 0 dx -> env_has (ys_of pts) 0 dy ->
  (0 <= dx < snd ds)%Z -> (0 <= dy < fst ds)%Z ->
  in_roi (snd (relative_rois back fwd ss ds n padding align)) dy dx.
Proof.
  intros E pts Ex Ey Hdx Hdy. rewrite relative_rois_snd, E.
  apply roi_from_points_env; try assumption; [lia | exact I].
Qed.

Lemma relative_rois_incl back fwd ss ds n padding align ky kx dy dx :
  (0 <= padding)%Z -> align_ok align ->
  let pts1 := map back (boundary_pts ((0%Z, fst ds), (0%Z, snd ds)) n) in
  let roi_s := roi_from_points pts1 (fst ss) (snd ss) padding align in
  let pts2 := map fwd (boundary_pts roi_s n) in
  env_has (xs_of pts1) padding kx -> env_has (ys_of pts1) padding ky ->
  (0 <= kx < snd ss)%Z -> (0 <= ky < fst ss)%Z ->
  env_has (xs_of pts2) 0 dx -> env_has (ys_of pts2) 0 dy ->
  (0 <= dx < snd ds)%Z -> (0 <= dy < fst ds)%Z ->
  in_roi (snd (relative_rois back fwd ss ds n padding align)) dy dx /\
  in_roi (fst (relative_rois back fwd ss ds n padding align)) ky kx.
Proof.
  intros Hp Ha pts1 roi_s pts2 E1 E2 K1 K2 E3 E4 Hdx Hdy.
  destruct (relative_rois_src back fwd ss ds n padding align ky kx Hp Ha E1 E2 K1 K2) as [Es Is].
  fold pts1 roi_s in Es, Is. split; [|rewrite Es; exact Is].
  apply relative_rois_dst; rewrite ?Es; try assumption. exact (in_roi_nonempty _ _ _ Is).
Qed.

Lemma pix_center_inside d n : (0 <= d < n)%Z -> 0 < inject_Z d + (1#2) /\ inject_Z d + (1#2) < inject_Z n.
Proof. intros [H0 H1]. apply inject_Z_ge0 in H0. apply inject_Z_succ_le in H1. lra. Qed.

Lemma xs_of_corners A y0 y1 x0 x1 :
  xs_of (map (aff_pt A) (boundary_pts ((y0, y1), (x0, x1)) 2)) =
  corner_vals (aa A) (ab A) (ac A) (inject_Z x0) (inject_Z x1) (inject_Z y0) (inject_Z y1).
Proof. reflexivity. Qed.

Lemma ys_of_corners A y0 y1 x0 x1 :
  ys_of (map (aff_pt A) (boundary_pts ((y0, y1), (x0, x1)) 2)) =
  corner_vals (ad A) (ae A) (af A) (inject_Z x0) (inject_Z x1) (inject_Z y0) (inject_Z y1).
Proof. reflexivity. Qed.

Lemma linear_env_src A (ny nx dy dx : Z) :
  (0 <= dy < ny)%Z -> (0 <= dx < nx)%Z ->
  ~ (aa A == 0 /\ ab A == 0) -> ~ (ad A == 0 /\ ae A == 0) ->
  let p := aff_apply A (pix_center dy dx) in
  let pts := map (aff_pt A) (boundary_pts ((0%Z, ny), (0%Z, nx)) 2) in
  env_has (xs_of pts) 0 (Qfloor (fst p)) /\ env_has (ys_of pts) 0 (Qfloor (snd p)).
Proof.
  intros Hdy Hdx R1 R2 p pts. unfold pts. rewrite xs_of_corners, ys_of_corners.
  destruct (pix_center_inside dx nx Hdx) as [X0 X1]. destruct (pix_center_inside dy ny Hdy) as [Y0 Y1].
  change (inject_Z 0) with 0.
  split; [apply (rect_env_floor (aa A) (ab A) (ac A) _ _ _ _ (inject_Z dx + (1#2)) (inject_Z dy + (1#2)))
         | apply (rect_env_floor (ad A) (ae A) (af A) _ _ _ _ (inject_Z dx + (1#2)) (inject_Z dy + (1#2)))];
    assumption || (split; apply Qlt_le_weak; assumption).
Qed.

Lemma linear_env_dst F (roi : roi2) (q : Q * Q) (dy dx : Z) :
  inject_Z (fst (snd roi)) <= fst q /\ fst q <= inject_Z (snd (snd roi)) ->
  inject_Z (fst (fst roi)) <= snd q /\ snd q <= inject_Z (snd (fst roi)) ->
  pt_eq (aff_apply F q) (pix_center dy dx) ->
  let pts := map (aff_pt F) (boundary_pts roi 2) in
  env_has (xs_of pts) 0 dx /\ env_has (ys_of pts) 0 dy.
Proof.
  destruct roi as [[y0 y1] [x0 x1]]. intros HX HY [Ex Ey] pts. unfold pts. rewrite xs_of_corners, ys_of_corners.
  split; [apply (rect_env_center (aa F) (ab F) (ac F) _ _ _ _ (fst q) (snd q) HX HY dx Ex)
         | apply (rect_env_center (ad F) (ae F) (af F) _ _ _ _ (fst q) (snd q) HX HY dy Ey)].
Qed.

Lemma inverse_rows F A : inverse_of F A ->
  ~ (aa A == 0 /\ ab A == 0) /\ ~ (ad A == 0 /\ ae A == 0).
Proof.
  intros H.
  pose proof (H (0, 0)) as [H00x H00y]. pose proof (H (1, 0)) as [H10x H10y]. pose proof (H (0, 1)) as [H01x H01y].
  unfold aff_apply in *. cbn [fst snd] in *.
  (* the linear parts multiply to the identity, so the determinants multiply to 1 *)
  assert (D : (aa F * ae F - ab F * ad F) * (aa A * ae A - ab A * ad A) == 1).
  { transitivity ((aa F * aa A + ab F * ad A) * (ad F * ab A + ae F * ae A)
                  - (aa F * ab A + ab F * ae A) * (ad F * aa A + ae F * ad A)); [ring|].
    assert (L1 : aa F * aa A + ab F * ad A == 1) by lra. assert (L2 : aa F * ab A + ab F * ae A == 0) by lra.
    assert (L3 : ad F * aa A + ae F * ad A == 0) by lra. assert (L4 : ad F * ab A + ae F * ae A == 1) by lra.
    rewrite L1, L2, L3, L4. ring. }
  split; intros [Z1 Z2]; rewrite Z1, Z2 in D; lra.
Qed.

Lemma affine_rois_src A F ss ds padding align dy dx jy jx :
  (0 <= padding)%Z -> align_ok align -> inverse_of F A ->
  (0 <= dy < fst ds)%Z -> (0 <= dx < snd ds)%Z ->
  let p := aff_apply A (pix_center dy dx) in
  (Qfloor (snd p) - padding <= jy <= Qfloor (snd p) + padding)%Z ->
  (Qfloor (fst p) - padding <= jx <= Qfloor (fst p) + padding)%Z ->
  (0 <= jy < fst ss)%Z -> (0 <= jx < snd ss)%Z ->
  in_roi (fst (relative_rois (aff_pt A) (aff_pt F) ss ds 2 padding align)) jy jx.
Proof.
  intros Hp Ha Hinv Hdy Hdx p Jy Jx Ry Rx.
  destruct (inverse_rows F A Hinv) as [R1 R2].
  destruct (linear_env_src A (fst ds) (snd ds) dy dx Hdy Hdx R1 R2) as [E1 E2].
  pose proof (env_has_pad _ _ jx padding E1 Jx) as E1'. pose proof (env_has_pad _ _ jy padding E2 Jy) as E2'.
  destruct (relative_rois_src _ (aff_pt F) ss ds 2 padding align jy jx Hp Ha E1' E2' Rx Ry) as [-> Is].
  exact Is.
Qed.

Lemma affine_rois_incl A F ss ds padding align :
  (0 <= padding)%Z -> align_ok align -> inverse_of F A ->
  forall dy dx, (0 <= dy < fst ds)%Z -> (0 <= dx < snd ds)%Z ->
    let p := aff_apply A (pix_center dy dx) in
    0 <= fst p -> fst p < inject_Z (snd ss) -> 0 <= snd p -> snd p < inject_Z (fst ss) ->
    in_roi (snd (relative_rois (aff_pt A) (aff_pt F) ss ds 2 padding align)) dy dx /\
    in_roi (fst (relative_rois (aff_pt A) (aff_pt F) ss ds 2 padding align)) (Qfloor (snd p)) (Qfloor (fst p)).
Proof.
  intros Hp Ha Hinv dy dx Hdy Hdx p Px0 Px1 Py0 Py1.
  assert (Is : in_roi (fst (relative_rois (aff_pt A) (aff_pt F) ss ds 2 padding align)) (Qfloor (snd p)) (Qfloor (fst p))).
  { apply (affine_rois_src A F ss ds padding align dy dx); try assumption; try (apply Qfloor_range; assumption);
      fold p; lia. }
  split; [|exact Is].
  (* the pixel centre is the image under [F] of [p], which lies in the source region *)
  destruct (linear_env_dst F _ p dy dx (Qfloor_in_range _ _ _ (proj2 Is)) (Qfloor_in_range _ _ _ (proj1 Is))
              (Hinv (pix_center dy dx))) as [E3 E4].
  apply relative_rois_dst; try assumption. exact (in_roi_nonempty _ _ _ Is).
Qed.

Lemma reproject_linear_cases c ss ds A F ttol stol padding align r :
  reproject_linear c ss ds A F ttol stol padding align = Ok r ->
  exists sx sy,
    scale2 A = Ok (sx, sy) /\ scale r = Qminq sx sy /\ scale_xy r = (sx, sy) /\
    pick_read_scale (scale r) (c_rs c) = Ok (read_shrink r) /\
    ((paste_ok r = false /\
      roi_src r = fst (relative_rois (aff_pt A) (aff_pt F) ss ds 2 (pad_default padding) (norm_align align)) /\
      roi_dst r = snd (relative_rois (aff_pt A) (aff_pt F) ss ds 2 (pad_default padding) (norm_align align))) \/
     (paste_ok r = true /\ opt_in0 (norm_align align) = true /\ opt_in0 padding = true /\
      can_paste_code c A stol ttol = Ok 0%Z /\
      exists rs rd,
        box_overlap (src_dims ss (read_shrink r)) ds (paste_affine c A ttol stol (read_shrink r)) = Ok (rs, rd) /\
        roi_src r = up_roi rs (read_shrink r) /\ roi_dst r = rd)).
Proof.
  unfold reproject_linear, pad_default. intros H.
  destruct (scale2 A) as [[sx sy]|e]; [|discriminate]. cbn [bind] in H.
  destruct (pick_read_scale (Qminq sx sy) (c_rs c)) as [k|e] eqn:Ek; [|discriminate]. cbn [bind] in H.
  exists sx, sy. split; [reflexivity|].
  destruct (if opt_in0 (norm_align align) && opt_in0 padding then can_paste c A stol ttol else Ok false)
    as [[|]|e] eqn:Eok; [| |discriminate]; cbn [bind] in H.
  - (* the two branches on [k =? 1] are one, by [src_dims] and [up_roi] *)
    assert (Hb : ('(rs, rd) <- box_overlap (src_dims ss k) ds (paste_affine c A ttol stol k) ;;
                  Ok (mkInfo (up_roi rs k) rd true k (Qminq sx sy) (sx, sy))) = Ok r)
      by (unfold src_dims, up_roi; destruct (k =? 1)%Z; exact H).
    destruct (box_overlap _ ds _) as [[rs rd]|e] eqn:Eb in Hb; [|discriminate].
    cbn [bind] in Hb. injection Hb as <-. cbn.
    destruct (opt_in0 (norm_align align) && opt_in0 padding) eqn:Et; [|discriminate].
    apply andb_true_iff in Et. unfold can_paste in Eok.
    destruct (can_paste_code c A stol ttol) as [code|e]; [|discriminate].
    injection Eok as E0. apply Z.eqb_eq in E0. subst code.
    repeat split; try assumption. right. repeat split; try tauto. exists rs, rd. auto.
  - destruct (relative_rois _ _ _ _ _ _ _) as [rs rd]. injection H as <-. cbn. auto 10.
Qed.

Lemma sampled_rois c ss ds A F ttol stol padding align r :
  reproject_linear c ss ds A F ttol stol padding align = Ok r -> paste_ok r = false ->
  roi_src r = fst (relative_rois (aff_pt A) (aff_pt F) ss ds 2 (pad_default padding) (norm_align align)) /\
  roi_dst r = snd (relative_rois (aff_pt A) (aff_pt F) ss ds 2 (pad_default padding) (norm_align align)).
Proof.
  intros Hr Hp.
  destruct (reproject_linear_cases _ _ _ _ _ _ _ _ _ _ Hr) as (sx & sy & _ & _ & _ & _ & [[_ E] | [Hp' _]]);
    [exact E | congruence].
Qed.

Lemma reproject_nonlinear_cases c back fwd scale_at ss ds padding align r :
  reproject_nonlinear c back fwd scale_at ss ds padding align = Ok r ->
  paste_ok r = false /\
  roi_src r = fst (relative_rois back fwd ss ds 5 (pad_default padding) (norm_align align)) /\
  roi_dst r = snd (relative_rois back fwd ss ds 5 (pad_default padding) (norm_align align)) /\
  ((roi_empty (roi_dst r) = true /\ read_shrink r = 1%Z /\ scale r = 0) \/
   (roi_empty (roi_dst r) = false /\
    exists sx sy, scale_xy r = (sx, sy) /\ scale r = Qminq sx sy /\
                  pick_read_scale (scale r) (c_rs c) = Ok (read_shrink r))).
Proof.
  unfold reproject_nonlinear, pad_default. intros H.
  destruct (relative_rois back fwd ss ds 5 _ _) as [rs rd].
  destruct (roi_empty rd) eqn:Ee; cbn [negb] in H.
  - injection H as <-. cbn. repeat split. left. repeat split. exact Ee.
  - destruct rd as [[y0 y1] [x0 x1]].
    destruct (scale_at _) as [[sx sy]|e]; [|discriminate]. cbn [bind] in H.
    destruct (pick_read_scale (Qminq sx sy) (c_rs c)) as [k|e] eqn:Ek; [|discriminate]. cbn [bind] in H.
    injection H as <-. cbn. repeat split. right. split; [exact Ee|]. exists sx, sy. repeat split. exact Ek.
Qed.

(** The paste path.  The scale estimate [scale2]; then: what _can_paste accepts is, at the read scale [k],
    within [stol] of scale +-1 and [ttol] of an integer shift, so snap_affine makes it exactly that
    ([paste_affine_unit]), and box_overlap on it is the unit-scale axis twice, against the k-fold overview.
    [paste_structure] puts this together; the last two lemmas are one axis of what Props/C03.v concludes. *)

(* Model.MathH.exact_sqrt is the same function *)
Lemma exact_sqrt_sound x r : exact_sqrt x = Some r -> 0 <= r /\ r * r == x.
Proof. exact (MathHLinear.exact_sqrt_spec x r). Qed.

Lemma scale2_spec A sx sy :
  scale2 A = Ok (sx, sy) ->
  0 < sx /\ 0 < sy /\ sx * sx == aa A * aa A + ad A * ad A /\
  sx * sy == Qabs (aa A * ae A - ab A * ad A) /\
  (ab A == 0 -> ad A == 0 -> sx == Qabs (aa A) /\ sy == Qabs (ae A)).
Proof.
  unfold scale2.
  destruct (Qeq_bool (ab A) 0 && Qeq_bool (ad A) 0) eqn:Est.
  - apply andb_true_iff in Est. destruct Est as [Eb Ed].
    apply Qeq_bool_eq in Eb. apply Qeq_bool_eq in Ed.
    destruct (Qeq_bool (aa A) 0 || Qeq_bool (ae A) 0) eqn:Ez; [discriminate|].
    apply orb_false_iff in Ez. destruct Ez as [Za Ze].
    apply Qeq_bool_neq in Za. apply Qeq_bool_neq in Ze.
    intros H; injection H as <- <-.
    split; [apply Qabs_nonzero; exact Za|]. split; [apply Qabs_nonzero; exact Ze|].
    split; [rewrite Ed; apply Qabs_case; intros; ring|].
    split; [rewrite Eb, <- Qabs_Qmult; apply Qabs_wd; ring | split; reflexivity].
  - destruct (exact_sqrt (aa A * aa A + ad A * ad A)) as [s1|] eqn:E1; [|discriminate].
    destruct (Qeq_bool s1 0) eqn:Z1; [discriminate|]. apply Qeq_bool_neq in Z1.
    destruct (exact_sqrt _) as [s2|] eqn:E2 in |- *; [|discriminate].
    destruct (Qeq_bool s2 0) eqn:Z2; [discriminate|]. apply Qeq_bool_neq in Z2.
    intros H; injection H as <- <-.
    apply exact_sqrt_sound in E1. apply exact_sqrt_sound in E2.
    destruct E1 as [P1 S1]. destruct E2 as [P2 S2].
    assert (Q1 : 0 < s1) by (destruct (Qeq_dec s1 0); [contradiction | lra]).
    assert (Q2 : 0 < s2) by (destruct (Qeq_dec s2 0); [contradiction | lra]).
    split; [exact Q1|]. split; [exact Q2|]. split; [exact S1|]. split.
    + (* (s1 s2)^2 = (a^2 + d^2) (b^2 + e^2) - (a b + d e)^2 = det^2 *)
      apply Qsq_eq_abs; [apply Qlt_le_weak, Qmult_lt_0_compat; assumption|].
      set (a := aa A) in *. set (b := ab A) in *. set (d := ad A) in *. set (e := ae A) in *.
      transitivity ((s1 * s1) * (s2 * s2)); [ring|]. rewrite S2.
      transitivity ((s1 * s1) * (b * b + e * e) - (a * b + d * e) * (a * b + d * e)); [field; exact Z1|].
      rewrite S1. ring.
    + intros Eb Ed. apply Qeq_bool_iff in Eb. apply Qeq_bool_iff in Ed. rewrite Eb, Ed in Est. discriminate.
Qed.

Lemma snap_affine_unit B ttol stol tol :
  Qabs (ab B) <= tol -> Qabs (ad B) <= tol -> stol <= half ->
  Qabs (Qabs (aa B) - 1) < stol -> Qabs (Qabs (ae B) - 1) < stol ->
  (exists z, Qabs (ac B - inject_Z z) < ttol) -> (exists z, Qabs (af B - inject_Z z) < ttol) ->
  exists tx ty,
    snap_affine B ttol stol tol =
      mkAff (unit_q (Qltb (aa B) 0)) 0 (inject_Z tx) 0 (unit_q (Qltb (ae B) 0)) (inject_Z ty) /\
    Qabs (ac B - inject_Z tx) < ttol /\ Qabs (ac B - inject_Z tx) <= half /\
    Qabs (af B - inject_Z ty) < ttol /\ Qabs (af B - inject_Z ty) <= half.
Proof.
  intros Hb Hd S1 Ha He [zx Hx] [zy Hy]. unfold snap_affine.
  destruct (Qltb_spec tol (Qabs (ab B))); [lra|]. destruct (Qltb_spec tol (Qabs (ad B))); [lra|]. cbn [orb].
  destruct (maybe_int_near _ _ _ Hx) as (tx & -> & Mx). destruct (maybe_int_near _ _ _ Hy) as (ty & -> & My).
  exists tx, ty. rewrite (snap_scale_unit _ _ S1 Ha), (snap_scale_unit _ _ S1 He). tauto.
Qed.

Lemma is_affine_st_spec A tol : is_affine_st A tol = true -> Qabs (ab A) < tol /\ Qabs (ad A) < tol.
Proof.
  unfold is_affine_st. intros H. apply andb_true_iff in H. destruct H as [H1 H2].
  split; apply Qlt_bool_true; assumption.
Qed.

(** acceptance by _can_paste, test by test; [A_] is [A] brought to the read scale *)
Lemma can_paste_code_ok c A stol ttol :
  can_paste_code c A stol ttol = Ok 0%Z ->
  exists sx sy k,
    scale2 A = Ok (sx, sy) /\ pick_read_scale (Qminq sx sy) (c_rs c) = Ok k /\
    Qabs (ab A) < c_st c /\ Qabs (ad A) < c_st c /\
    (exists z, Qabs (Qminq sx sy - inject_Z z) < stol) /\
    let A_ := aff_scale_left (1 / inject_Z k) A in
    Qabs (Qabs (aa A_) - 1) < stol /\ Qabs (Qabs (ae A_) - 1) < stol /\
    (exists z, Qabs (ac A_ - inject_Z z) < ttol) /\ (exists z, Qabs (af A_ - inject_Z z) < ttol).
Proof.
  unfold can_paste_code. intros H.
  destruct (is_affine_st A (c_st c)) eqn:Est; [|discriminate]. cbn [negb] in H.
  apply is_affine_st_spec in Est. destruct Est as [Hb Hd].
  destruct (scale2 A) as [[sx sy]|e] eqn:Es; [|discriminate]. cbn [bind] in H.
  destruct (is_almost_int (Qminq sx sy) stol) eqn:Ei; [|discriminate]. cbn [negb] in H.
  destruct (pick_read_scale (Qminq sx sy) (c_rs c)) as [k|e] eqn:Ek; [|discriminate]. cbn [bind] in H.
  destruct (Qle_bool stol _ || Qle_bool stol _) eqn:E3 in H; [discriminate|].
  apply orb_false_iff in E3. destruct E3 as [E3a E3b].
  apply Qle_bool_false in E3a. apply Qle_bool_false in E3b.
  destruct (is_almost_int _ ttol && is_almost_int _ ttol) eqn:E4 in H; [|discriminate].
  apply andb_true_iff in E4. destruct E4 as [E4a E4b].
  exists sx, sy, k. cbv zeta. repeat split; try reflexivity; try assumption; apply is_almost_int_near; assumption.
Qed.

Lemma inv_scale (k : Z) x :
  (1 <= k)%Z ->
  1 / inject_Z k * x == x / inject_Z k /\
  Qabs (1 / inject_Z k * x) == Qabs x / inject_Z k /\ Qabs (1 / inject_Z k * x) <= Qabs x /\
  Qltb (1 / inject_Z k * x) 0 = Qltb x 0.
Proof.
  intros K%inject_Z_ge1.
  assert (U0 : 0 < 1 / inject_Z k) by (apply Qlt_shift_div_l; lra).
  assert (U1 : 1 / inject_Z k <= 1) by (apply Qle_shift_div_r; lra).
  assert (E : forall y, 1 / inject_Z k * y == y / inject_Z k) by (intros y; field; lra).
  set (u := 1 / inject_Z k) in *. pose proof (Qabs_nonneg x).
  split; [apply E|]. rewrite Qabs_Qmult, (Qabs_pos u), E by lra. split; [reflexivity|].
  split; [rewrite <- E; nra|].
  destruct (Qltb_spec x 0); [apply Qlt_bool_true | apply Qlt_bool_false]; nra.
Qed.

Lemma paste_affine_unit c A stol ttol sx sy k :
  can_paste_code c A stol ttol = Ok 0%Z ->
  scale2 A = Ok (sx, sy) -> pick_read_scale (Qminq sx sy) (c_rs c) = Ok k -> tol_ok c stol ->
  (1 <= k)%Z /\ Qabs (ab A) < c_st c /\ Qabs (ad A) < c_st c /\
  exists tx ty,
    paste_affine c A ttol stol k =
      mkAff (unit_q (Qltb (aa A) 0)) 0 (inject_Z tx) 0 (unit_q (Qltb (ae A) 0)) (inject_Z ty) /\
    Qabs (Qabs (aa A) / inject_Z k - 1) < stol /\ Qabs (Qabs (ae A) / inject_Z k - 1) < stol /\
    Qabs (ac A / inject_Z k - inject_Z tx) < ttol /\ Qabs (ac A / inject_Z k - inject_Z tx) <= half /\
    Qabs (af A / inject_Z k - inject_Z ty) < ttol /\ Qabs (af A / inject_Z k - inject_Z ty) <= half.
Proof.
  intros Hc Hs Hk (S0 & S1 & R0 & Cs).
  destruct (can_paste_code_ok _ _ _ _ Hc) as (sx' & sy' & k' & Hs' & Hk' & Hb & Hd & _ & Ha & He & Zx & Zy).
  rewrite Hs in Hs'. injection Hs' as <- <-. rewrite Hk in Hk'. injection Hk' as <-.
  destruct (pick_read_scale_spec _ _ _ R0 Hk) as (_ & K1 & _).
  split; [exact K1|]. split; [exact Hb|]. split; [exact Hd|].
  cbn [aff_scale_left aa ab ac ad ae af] in *. unfold paste_affine.
  destruct (Z.eqb_spec k 1) as [-> | _].
  - (* at k = 1 the tests were made on [1 / 1 * A], the snap is of [A] itself *)
    change (1 / inject_Z 1) with 1 in *. rewrite Qmult_1_l in Ha, He. setoid_rewrite Qmult_1_l in Zx. setoid_rewrite Qmult_1_l in Zy.
    destruct (snap_affine_unit A ttol stol (c_snap c)) as (tx & ty & P & Q); try assumption; try lra.
    exists tx, ty. rewrite !Qdiv_1. tauto.
  - destruct (inv_scale k (aa A) K1) as (_ & Aa & _ & Sa). destruct (inv_scale k (ae A) K1) as (_ & Ae & _ & Se).
    destruct (inv_scale k (ab A) K1) as (_ & _ & Lb & _). destruct (inv_scale k (ad A) K1) as (_ & _ & Ld & _).
    destruct (inv_scale k (ac A) K1) as (Ec & _). destruct (inv_scale k (af A) K1) as (Ef & _).
    destruct (snap_affine_unit (aff_scale_left (1 / inject_Z k) A) ttol stol (c_snap c)) as (tx & ty & P & Q);
      cbn [aff_scale_left aa ab ac ad ae af] in *; try assumption; try lra.
    exists tx, ty. rewrite Sa, Se in P. split; [exact P|].
    rewrite <- Aa, <- Ae, <- Ec, <- Ef. tauto.
Qed.

Lemma box_overlap_unit ss ds fx fy tx ty :
  (0 <= fst ss)%Z -> (0 <= snd ss)%Z -> (0 <= fst ds)%Z -> (0 <= snd ds)%Z ->
  exists rs rd,
    box_overlap ss ds (mkAff (unit_q fx) 0 (inject_Z tx) 0 (unit_q fy) (inject_Z ty)) = Ok (rs, rd) /\
    axis_unit_facts (fst ss) (fst ds) ty fy (fst rs) (fst rd) /\
    axis_unit_facts (snd ss) (snd ds) tx fx (snd rs) (snd rd).
Proof.
  intros S1 S2 D1 D2. unfold box_overlap. cbn [aa ab ac ad ae af].
  destruct (axis_unit (fst ss) (fst ds) ty fy S1 D1) as (s0 & d0 & -> & F0).
  destruct (axis_unit (snd ss) (snd ds) tx fx S2 D2) as (s1 & d1 & -> & F1). cbn [bind].
  exists (s0, s1), (d0, d1). split; [reflexivity|]. split; assumption.
Qed.

Lemma zoom_out_dim_spec n k : (0 <= n)%Z -> (1 <= k)%Z ->
  (1 <= zoom_out_dim n k)%Z /\ (n <= k * zoom_out_dim n k)%Z /\ (k * zoom_out_dim n k < n + k \/ n = 0%Z)%Z.
Proof.
  intros Hn Hk. unfold zoom_out_dim.
  assert (Hkq : 0 < inject_Z k) by (apply inject_Z_gt0; lia).
  assert (Hq : (inject_Z n / inject_Z k) * inject_Z k == inject_Z n) by (field; lra).
  set (q := inject_Z n / inject_Z k) in *.
  destruct (Qceiling_spec q) as (cq & Ec & C1 & C2).
  set (cz := Qceiling q) in *. clearbody q.
  assert (G1 : (n <= k * cz)%Z).
  { rewrite Zle_Qle, inject_Z_mult, <- Ec, <- Hq. nra. }
  assert (G2 : (k * cz < n + k)%Z).
  { rewrite Zlt_Qlt, inject_Z_mult, inject_Z_plus, <- Ec, <- Hq. nra. }
  split; [lia|].
  destruct (Z.eq_dec n 0) as [N0 | N0].
  - split; [|right; assumption]. subst n. lia.
  - assert (1 <= cz)%Z by nia. rewrite Z.max_r by lia. split; [lia | left; lia].
Qed.

Lemma floor_scaled (px : Q) (k h : Z) :
  (1 <= k)%Z -> Qfloor (px / inject_Z k) = h -> (k * h <= Qfloor px < k * h + k)%Z.
Proof.
  intros Hk <-.
  assert (Hkq : 0 < inject_Z k) by (apply inject_Z_gt0; lia).
  assert (Hq : (px / inject_Z k) * inject_Z k == px) by (field; lra).
  set (q := px / inject_Z k) in *.
  destruct (Qfloor_spec q) as (f & Ef & F1 & F2). clearbody q.
  split.
  - apply Qfloor_ge_iff. rewrite inject_Z_mult, <- Ef, <- Hq. nra.
  - apply Qfloor_lt_iff. rewrite inject_Z_plus, inject_Z_mult, <- Ef, <- Hq. nra.
Qed.

Lemma src_dims_spec ss k : (0 <= fst ss)%Z -> (0 <= snd ss)%Z -> (1 <= k)%Z ->
  (0 <= fst (src_dims ss k) /\ fst ss <= k * fst (src_dims ss k) /\
   (k * fst (src_dims ss k) < fst ss + k \/ fst ss = 0))%Z /\
  (0 <= snd (src_dims ss k) /\ snd ss <= k * snd (src_dims ss k) /\
   (k * snd (src_dims ss k) < snd ss + k \/ snd ss = 0))%Z.
Proof.
  intros H1 H2 Hk. unfold src_dims. destruct (Z.eqb_spec k 1) as [-> | K]; cbn [fst snd]; [lia|].
  pose proof (zoom_out_dim_spec (fst ss) k H1 Hk). pose proof (zoom_out_dim_spec (snd ss) k H2 Hk). lia.
Qed.

Lemma up_roi_eq rs k :
  up_roi rs k = ((fst (fst rs) * k, snd (fst rs) * k), (fst (snd rs) * k, snd (snd rs) * k))%Z.
Proof.
  unfold up_roi. destruct (Z.eqb_spec k 1) as [-> | K]; [|reflexivity].
  destruct rs as [[y0 y1] [x0 x1]]. cbn [fst snd]. rewrite !Z.mul_1_r. reflexivity.
Qed.

Lemma up_roi_within rs k dims : (1 <= k)%Z -> roi_within rs dims ->
  roi_within (up_roi rs k) (k * fst dims, k * snd dims)%Z /\
  (fst (fst (up_roi rs k)) mod k = 0 /\ snd (fst (up_roi rs k)) mod k = 0 /\
   fst (snd (up_roi rs k)) mod k = 0 /\ snd (snd (up_roi rs k)) mod k = 0)%Z.
Proof.
  intros Hk [Wy Wx]. rewrite up_roi_eq. unfold roi_within, sl_within in *. cbn [fst snd].
  split; [nia|]. rewrite !Z.mod_mul by lia. auto.
Qed.

Lemma paste_structure c ss ds A F ttol stol padding align r :
  reproject_linear c ss ds A F ttol stol padding align = Ok r -> paste_ok r = true ->
  (0 <= fst ss)%Z -> (0 <= snd ss)%Z -> (0 <= fst ds)%Z -> (0 <= snd ds)%Z -> tol_ok c stol ->
  let k := read_shrink r in
  (1 <= k)%Z /\
  exists tx ty rs rd,
    paste_affine c A ttol stol k =
      mkAff (unit_q (Qltb (aa A) 0)) 0 (inject_Z tx) 0 (unit_q (Qltb (ae A) 0)) (inject_Z ty) /\
    axis_unit_facts (fst (src_dims ss k)) (fst ds) ty (Qltb (ae A) 0) (fst rs) (fst rd) /\
    axis_unit_facts (snd (src_dims ss k)) (snd ds) tx (Qltb (aa A) 0) (snd rs) (snd rd) /\
    roi_src r = up_roi rs k /\ roi_dst r = rd /\
    Qabs (ab A) < c_st c /\ Qabs (ad A) < c_st c /\
    Qabs (Qabs (aa A) / inject_Z k - 1) < stol /\ Qabs (Qabs (ae A) / inject_Z k - 1) < stol /\
    Qabs (ac A / inject_Z k - inject_Z tx) < ttol /\ Qabs (ac A / inject_Z k - inject_Z tx) <= half /\
    Qabs (af A / inject_Z k - inject_Z ty) < ttol /\ Qabs (af A / inject_Z k - inject_Z ty) <= half.
Proof.
  intros Hr Hp S1 S2 D1 D2 Htol k.
  destruct (reproject_linear_cases _ _ _ _ _ _ _ _ _ _ Hr) as (sx & sy & Hs & Hsc & _ & Hk & [[Hp' _] | (_ & _ & _ & Hc & rs & rd & Hb & Hrs & Hrd)]);
    [congruence|].
  rewrite Hsc in Hk. fold k in Hk, Hb, Hrs.
  destruct (paste_affine_unit c A stol ttol sx sy k Hc Hs Hk Htol) as (K1 & Hb1 & Hd1 & tx & ty & HP & Q).
  split; [exact K1|].
  destruct (src_dims_spec ss k S1 S2 K1) as [(N1 & _) (N2 & _)].
  destruct (box_overlap_unit (src_dims ss k) ds (Qltb (aa A) 0) (Qltb (ae A) 0) tx ty N1 N2 D1 D2)
    as (rs' & rd' & Hb' & Fy & Fx).
  rewrite HP in Hb. rewrite Hb in Hb'. injection Hb' as <- <-.
  exists tx, ty, rs, rd. repeat (split; [assumption|]). exact Q.
Qed.

Lemma aff_apply_unit fx fy tx ty dy dx :
  pt_eq (aff_apply (mkAff (unit_q fx) 0 (inject_Z tx) 0 (unit_q fy) (inject_Z ty)) (pix_center dy dx))
        (pix_center (nn_unit ty fy dy) (nn_unit tx fx dx)).
Proof. split; cbn; rewrite <- nn_unit_half; ring. Qed.

(** one axis of the inclusion on the paste path: [p] is a true source location whose overview
    coordinate is within half a pixel of the snapped image [c] of the centre of pixel [d];
    the source slice is the overview one scaled up by [k] *)
Lemma axis_paste_in Ns Nd T flip src dst k n d (p c : Q) :
  axis_unit_facts Ns Nd T flip src dst -> (1 <= k)%Z -> (n <= k * Ns)%Z -> (0 <= d < Nd)%Z ->
  c == inject_Z (nn_unit T flip d) + (1#2) -> Qabs (p / inject_Z k - c) < 1#2 ->
  0 <= p -> p < inject_Z n ->
  in_sl dst d /\ in_sl (fst src * k, snd src * k)%Z (Qfloor p).
Proof.
  intros (_ & _ & _ & F2 & F3) Hk Hn Hd Ec Hp P0 P1. rewrite Ec in Hp. apply Qfloor_near_half in Hp.
  pose proof (floor_scaled p k _ Hk Hp) as Hf. pose proof (Qfloor_range p n P0 P1) as Hr.
  assert (R : in_sl dst d) by (apply F2; [exact Hd | nia]).
  destruct (F3 d R) as [_ [R0 R1]]. split; [exact R|]. unfold in_sl. cbn [fst snd]. nia.
Qed.

Lemma axis_unit_empty Ns Nd T flip src dst (x : Z -> Q) :
  axis_unit_facts Ns Nd T flip src dst ->
  (forall d, x d == inject_Z (nn_unit T flip d) + (1#2)) ->
  (forall d, (0 <= d < Nd)%Z -> ~ (0 <= x d /\ x d < inject_Z Ns)) ->
  sl_empty src /\ sl_empty dst.
Proof.
  intros (W1 & W2 & Es & F2 & _) Ex H. unfold sl_empty, sl_within, in_sl in *.
  destruct (Z.eq_dec (snd dst) (fst dst)) as [E | N]; [lia|].
  exfalso. apply (H (fst dst)); [lia|]. rewrite Ex.
  assert (Hn : (0 <= nn_unit T flip (fst dst) < Ns)%Z) by (apply F2; lia).
  apply pix_center_inside in Hn. lra.
Qed.
