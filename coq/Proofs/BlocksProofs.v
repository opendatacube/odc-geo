(** Lemmas for property C04, block assembly part.  Pasting: the three-way slice
    intersection (Model/Roi.v, property C17) of a tile with the window, composed with the
    partition theorem of TilesProofs.  Then [_verify_shape], the constructor, the plan
    of [extract] and the working dtype. *)
From Coq Require Import ZArith List Bool Lia Permutation.
From OG Require Import Base.Result Base.ListSel Model.Roi Model.Tiles Model.Blocks
     Proofs.TilesProofs.
Import ListNotations.
Open Scope Z_scope.

Lemma norm_mk_sl a b : 0 <= a -> 0 <= b -> norm_slice_or_error (mk_sl (a, b)) = Ok (a, b, None).
Proof.
  intros Ha Hb. unfold norm_slice_or_error, mk_sl, fill. cbn [fst snd].
  destruct (Z.ltb_spec b 0); [lia|]. destruct (Z.ltb_spec a 0); [lia|]. reflexivity.
Qed.

Lemma eff_in n a b : 0 <= a <= b -> b <= n -> eff n (a, b) = (a, b - a).
Proof. intros. unfold eff. cbn [fst snd]. f_equal; lia. Qed.

(** what the three-way intersection of a tile [t0,t1) with a window [w0,w1) means
    for numpy views into the block (extent t1-t0) and into the output (extent w1-w0) *)
Lemma intersect3_axis t0 t1 w0 w1 : 0 <= t0 <= t1 -> 0 <= w0 <= w1 ->
  exists s' d' ab',
    slice_intersect3 (mk_sl (t0, t1)) (mk_sl (w0, w1)) = Ok (s', d', ab') /\
    let es := eff (t1 - t0) s' in
    let ed := eff (w1 - w0) d' in
    snd es = snd ed /\
    (forall y, inside ed y = true <-> (0 <= y < w1 - w0 /\ t0 <= w0 + y < t1)) /\
    (forall y, inside ed y = true -> fst es + (y - fst ed) = w0 + y - t0).
Proof.
  intros Ht Hw. unfold slice_intersect3. rewrite !norm_mk_sl by lia. cbn [bind].
  (* tile before the window, after it, or overlapping: each time both slices lie inside their extents *)
  destruct (Z.ltb_spec t1 w0); [|destruct (Z.gtb_spec t0 w1)];
    (eexists _, _, _; split; [reflexivity|]); rewrite !eff_in by lia; unfold inside; cbn [fst snd];
    (split; [|split; intros y]); lia.
Qed.

Definition key_eqb (a b : Z * Z) : bool := (fst a =? fst b) && (snd a =? snd b).

Lemma key_eqb_spec a b : reflect (a = b) (key_eqb a b).
Proof.
  unfold key_eqb. destruct a as (a1, a2), b as (b1, b2). cbn [fst snd].
  destruct (Z.eqb_spec a1 b1); destruct (Z.eqb_spec a2 b2); cbn [andb]; constructor; congruence.
Qed.

Section Assemble.
  Context {E V W : Type}.
  Variable cast : V -> W.
  Variable esel : E -> E.
  Variable t : vtiles.
  Variable fill : W.
  Variable w : (Z * Z) * (Z * Z).
  Hypothesis Wt : rt_wf (RVar t).
  Hypothesis Hwy : 0 <= fst (fst w) <= snd (fst w).
  Hypothesis Hwx : 0 <= fst (snd w) <= snd (snd w).

  Let T := RVar t.

  Definition block_ok (kb : (Z * Z) * arr (E:=E) V) : Prop :=
    in_grid T (fst kb) /\ a_sh (snd kb) = roi_shape2 (tile_region T (fst kb)).

  (** value of the block stored for tile [k] at mosaic pixel (Y, X) *)
  Definition block_at (k : Z * Z) (b : arr (E:=E) V) (e : E) (Y X : Z) : W :=
    cast (a_at b e (Y - By T (fst k)) (X - Bx T (snd k))).

  Lemma paste_block_spec xx k b :
    a_sh xx = roi_shape2 w -> block_ok (k, b) ->
    exists xx', paste_block cast esel t w xx (k, b) = Ok xx' /\ a_sh xx' = a_sh xx /\
      forall e y x, 0 <= y < fst (roi_shape2 w) -> 0 <= x < snd (roi_shape2 w) ->
        let P := (fst (fst w) + y, fst (snd w) + x) in
        (in_roi (tile_region T k) P -> a_at xx' e y x = block_at k b (esel e) (fst P) (snd P)) /\
        (~ in_roi (tile_region T k) P -> a_at xx' e y x = a_at xx e y x).
  Proof.
    intros Hsh (G & Hb). cbn [fst snd] in G, Hb.
    unfold paste_block. cbn [fst snd].
    change (vt_getitem t (int_idx k)) with (rt_getitem T (int_idx k)).
    rewrite rt_index_grid by assumption. cbn [bind].
    pose proof (rt_region_inside T k Wt G) as RI. cbv zeta in RI.
    destruct w as ((wy0, wy1), (wx0, wx1)). cbn [fst snd] in *.
    unfold tile_region in *. cbn [fst snd] in *.
    set (ty0 := By T (fst k)) in *. set (ty1 := By T (fst k + 1)) in *.
    set (tx0 := Bx T (snd k)) in *. set (tx1 := Bx T (snd k + 1)) in *.
    destruct (intersect3_axis ty0 ty1 wy0 wy1 ltac:(lia) ltac:(lia)) as (sy & dy & cy & Ey & Ly & Iy & Oy).
    destruct (intersect3_axis tx0 tx1 wx0 wx1 ltac:(lia) ltac:(lia)) as (sx & dx & cx & Ex & Lx & Ix & Ox).
    unfold roi_intersect3. cbn [fst snd]. rewrite Ey, Ex. cbn [bind].
    unfold np_copyto_view. rewrite Hsh, Hb. unfold roi_shape2. cbn [fst snd].
    cbv zeta in Ly, Lx, Iy, Ix, Oy, Ox.
    rewrite <- Ly, <- Lx, !Z.eqb_refl. cbn [andb].
    eexists; split; [reflexivity|]. cbn [a_sh a_at]. split; [reflexivity|].
    intros e y x Hy Hx. cbv zeta. unfold block_at. cbn [fst snd].
    assert (In : inside (eff (wy1 - wy0) dy) y && inside (eff (wx1 - wx0) dx) x = true <->
                 in_roi ((ty0, ty1), (tx0, tx1)) (wy0 + y, wx0 + x))
      by (unfold in_roi; cbn [fst snd]; rewrite andb_true_iff, Iy, Ix; lia).
    destruct (inside _ y && inside _ x) eqn:B.
    - split; [intros _ | intros N; destruct N; apply In; reflexivity].
      apply andb_true_iff in B as (B1 & B2). rewrite Oy, Ox by assumption. fold ty0 tx0. do 2 f_equal; lia.
    - split; [intros P; apply In in P; discriminate | reflexivity].
  Qed.

  Fixpoint lookup (k : Z * Z) (bl : list ((Z * Z) * arr (E:=E) V)) : option (arr (E:=E) V) :=
    match bl with
    | [] => None
    | kb :: r => if key_eqb (fst kb) k then Some (snd kb) else lookup k r
    end.

  Lemma lookup_none k bl : ~ In k (map fst bl) -> lookup k bl = None.
  Proof.
    induction bl as [|kb r IH]; cbn [lookup map]; intros H; [reflexivity|].
    destruct (key_eqb_spec (fst kb) k) as [Ek | N]; [exfalso; apply H; left; exact Ek|].
    apply IH. intros X; apply H; right; exact X.
  Qed.

  (** the mosaic: the block of the tile holding the pixel if it is present, else fill *)
  Definition mosaic (bl : list ((Z * Z) * arr (E:=E) V)) (e : E) (Y X : Z) : W :=
    match vt_locate t (Y, X) with
    | Ok rc => match lookup rc bl with
               | Some b => block_at rc b e Y X
               | None => fill
               end
    | Err _ => fill
    end.

  Lemma paste_all_spec : forall bl xx,
    a_sh xx = roi_shape2 w -> NoDup (map fst bl) -> Forall block_ok bl ->
    exists out, paste_all cast esel t w xx bl = Ok out /\ a_sh out = a_sh xx /\
      forall e y x, 0 <= y < fst (roi_shape2 w) -> 0 <= x < snd (roi_shape2 w) ->
        let Y := fst (fst w) + y in
        let X := fst (snd w) + x in
        a_at out e y x =
          match vt_locate t (Y, X) with
          | Ok rc => match lookup rc bl with
                     | Some b => block_at rc b (esel e) Y X
                     | None => a_at xx e y x
                     end
          | Err _ => a_at xx e y x
          end.
  Proof.
    induction bl as [|(k, b) r IH]; intros xx Hsh ND OK.
    - exists xx. split; [reflexivity|]. split; [reflexivity|].
      intros e y x _ _. cbv zeta. cbn [lookup]. destruct (vt_locate t _); reflexivity.
    - inversion ND as [|? ? Hnotin ND']; subst. inversion OK as [|? ? OKk OK']; subst.
      destruct (paste_block_spec xx k b Hsh OKk) as (xx' & Ep & Sh' & Val).
      cbn [paste_all]. rewrite Ep. cbn [bind].
      destruct (IH xx' ltac:(congruence) ND' OK') as (out & Eo & Sho & Valo).
      exists out. split; [exact Eo|]. split; [congruence|].
      intros e y x Hy Hx. cbv zeta. rewrite (Valo e y x Hy Hx). cbv zeta.
      destruct (Val e y x Hy Hx) as (Vin & Vout). cbn [fst snd] in Vin, Vout.
      set (Y := fst (fst w) + y) in *. set (X := fst (snd w) + x) in *.
      pose proof (rt_locate_spec T Y X Wt) as L. change (rt_locate T (Y, X)) with (vt_locate t (Y, X)) in L.
      destruct (vt_locate t (Y, X)) as [rc | err].
      + destruct L as (G & Pin). cbn [lookup fst snd]. destruct (key_eqb_spec k rc) as [-> | Nk].
        * rewrite lookup_none by exact Hnotin. apply Vin. exact Pin.
        * destruct (lookup rc r); [reflexivity|]. apply Vout.
          intros Pk. apply Nk. apply (rt_disjoint T k rc (Y, X)); try assumption. apply OKk.
      + apply Vout. intros Pk. destruct L as (_ & L). apply L.
        exact (in_roi_inside T k (Y, X) Wt (proj1 OKk) Pk).
  Qed.

  Theorem extract_spec bl :
    NoDup (map fst bl) -> Forall block_ok bl ->
    exists out, extract_yx cast esel t bl fill w = Ok out /\ a_sh out = roi_shape2 w /\
      forall e y x, 0 <= y < fst (roi_shape2 w) -> 0 <= x < snd (roi_shape2 w) ->
        a_at out e y x = mosaic bl (esel e) (fst (fst w) + y) (fst (snd w) + x).
  Proof.
    intros ND OK. unfold extract_yx, np_full.
    assert (Hs : 0 <= fst (roi_shape2 w) /\ 0 <= snd (roi_shape2 w)) by (unfold roi_shape2; cbn [fst snd]; lia).
    destruct (Z.ltb_spec (fst (roi_shape2 w)) 0); [lia|]. destruct (Z.ltb_spec (snd (roi_shape2 w)) 0); [lia|].
    cbn [orb bind].
    destruct (paste_all_spec bl {| a_sh := roi_shape2 w; a_at := fun _ _ _ => fill |} eq_refl ND OK)
      as (out & Eo & Sho & Valo).
    exists out. split; [exact Eo|]. split; [exact Sho|].
    intros e y x Hy Hx. rewrite (Valo e y x Hy Hx). cbv zeta. unfold mosaic. cbn [a_at].
    destruct (vt_locate t _); [|reflexivity]. destruct (lookup _ bl); reflexivity.
  Qed.
End Assemble.

(** the three parts of a shape [pre ++ mid ++ post], as [_verify_shape] and [_norm_roi] cut them out *)
Lemma py_slice_pre {A} (a r : list A) m : len a = m -> py_slice (a ++ r) None (Some m) = a.
Proof.
  intros <-. unfold py_slice. pose proof (len_nonneg a). pose proof (len_nonneg r).
  rewrite RoiProofs.py_clamp_in by (rewrite len_app; lia). exact (sel_app_mid [] a r).
Qed.

Lemma py_slice_mid {A} (a b c : list A) m n : len a = m -> len b = n ->
  py_slice (a ++ b ++ c) (Some m) (Some (m + n)) = b.
Proof.
  intros <- <-. unfold py_slice. pose proof (len_nonneg a). pose proof (len_nonneg b). pose proof (len_nonneg c).
  rewrite !RoiProofs.py_clamp_in by (rewrite !len_app; lia). apply sel_app_mid.
Qed.

Lemma py_slice_post {A} (a b c : list A) m n : len a = m -> len b = n ->
  py_slice (a ++ b ++ c) (Some (m + n)) None = c.
Proof.
  intros <- <-. unfold py_slice. pose proof (len_nonneg a). pose proof (len_nonneg b). pose proof (len_nonneg c).
  rewrite RoiProofs.py_clamp_in by (rewrite !len_app; lia). cbn [py_clamp].
  pose proof (sel_app_mid (a ++ b) c []) as M. rewrite app_nil_r, <- app_assoc, !len_app in M.
  rewrite !len_app, Z.add_assoc. exact M.
Qed.

Lemma list_eqbZ_refl l : list_eqbZ l l = true.
Proof. induction l; cbn; [reflexivity|]. rewrite Z.eqb_refl. exact IHl. Qed.

Lemma list_eqbZ_eq x : forall y, list_eqbZ x y = true -> x = y.
Proof.
  induction x as [|a x IH]; intros [|b y] H; cbn in H; try discriminate; [reflexivity|].
  apply andb_true_iff in H. destruct H as (H1 & H2). apply Z.eqb_eq in H1. f_equal; auto.
Qed.

Definition block_shape (pre post chy chx : list Z) (k : Z * Z) : list Z :=
  pre ++ [nthZ chy (fst k); nthZ chx (snd k)] ++ post.

Definition key_ok (chy chx : list Z) (k : Z * Z) : Prop :=
  0 <= fst k < len chy /\ 0 <= snd k < len chx.

(** one iteration of [_verify_shape], on the first block or on a block of the shape seen so far:
    what is left is the comparison of the Y/X extent with the chunk sizes *)
Lemma verify_step_eval pre post chy chx st k sy sx :
  key_ok chy chx k -> (st = None \/ st = Some (len pre + (2 + len post), pre, post)) ->
  verify_step chy chx (len pre) st (k, pre ++ [sy; sx] ++ post) =
    if list_eqbZ [sy; sx] [nthZ chy (fst k); nthZ chx (snd k)]
    then Ok (Some (len pre + (2 + len post), pre, post)) else Err EValue.
Proof.
  intros (Ky & Kx) Hst. unfold verify_step. destruct k as (iy, ix). cbn [fst snd] in *.
  rewrite py_slice_pre, py_slice_mid, py_slice_post, !len_app by reflexivity.
  change (len [sy; sx]) with 2. pose proof (len_nonneg post).
  destruct Hst as [-> | ->]; [replace (len pre + (2 + len post) <? len pre + 2) with false by lia|];
    cbn [bind]; rewrite Z.eqb_refl, !list_eqbZ_refl, !np_at_in by lia; reflexivity.
Qed.

Lemma verify_loop_ok pre post chy chx : forall keys st,
  Forall (key_ok chy chx) keys ->
  (st = None \/ st = Some (len pre + (2 + len post), pre, post)) ->
  verify_loop chy chx (len pre) st (map (fun k => (k, block_shape pre post chy chx k)) keys) =
    Ok (match keys with [] => st | _ => Some (len pre + (2 + len post), pre, post) end).
Proof.
  induction keys as [|k r IH]; intros st HK Hst; [reflexivity|].
  inversion HK; subst. cbn [map verify_loop]. unfold block_shape at 1.
  rewrite verify_step_eval, list_eqbZ_refl by assumption. cbn [bind].
  rewrite IH by auto. destruct r; reflexivity.
Qed.

Lemma verify_shape_ok pre post chy chx keys :
  Forall (key_ok chy chx) keys -> keys <> [] ->
  ba_verify_shape (map (fun k => (k, block_shape pre post chy chx k)) keys) chy chx (len pre) =
    Ok (pre ++ [sumZ chy; sumZ chx] ++ post).
Proof.
  intros HK Hne. unfold ba_verify_shape. rewrite verify_loop_ok by auto. cbn [bind].
  destruct keys; [congruence | reflexivity].
Qed.

Lemma verify_shape_empty chy chx axis : ba_verify_shape [] chy chx axis = Ok [sumZ chy; sumZ chx].
Proof. reflexivity. Qed.

Lemma ba_init_ok pre post chy chx keys :
  nonneg chy -> nonneg chx -> tot chy < two63 -> tot chx < two63 ->
  Forall (key_ok chy chx) keys -> (keys <> [] \/ (pre = [] /\ post = [])) ->
  exists a t, ba_init (map (fun k => (k, block_shape pre post chy chx k)) keys) chy chx (len pre) = Ok a /\
            vt_init chy chx = Ok t /\ rt_wf (RVar t) /\
            ba_shape a = pre ++ [sumZ chy; sumZ chx] ++ post /\ ba_axis a = len pre /\ ba_tiles a = t.
Proof.
  intros Ny Nx Ty Tx HK Hne.
  destruct (vt_init_spec chy chx Ny Nx Ty Tx) as (Et & Wt & _ & Eb & _).
  assert (Esh : ba_verify_shape (map (fun k => (k, block_shape pre post chy chx k)) keys) chy chx (len pre)
                = Ok (pre ++ [sumZ chy; sumZ chx] ++ post)).
  { destruct keys as [|k r].
    - destruct Hne as [Hne | (-> & ->)]; [congruence | reflexivity].
    - apply verify_shape_ok; [assumption | congruence]. }
  unfold ba_init. rewrite Esh, Et. cbn [bind]. cbn [rt_base] in Eb. rewrite Eb. cbn [bind fst snd].
  rewrite py_slice_mid, list_eqbZ_refl by reflexivity.
  eexists _, _. cbn [ba_shape ba_axis ba_tiles]. auto 10.
Qed.

Lemma zip_norm_app a b : forall sa sb, length a = length sa ->
  zip_norm (a ++ b) (sa ++ sb) = zip_norm a sa ++ zip_norm b sb.
Proof.
  induction a as [|x a IH]; intros [|n sa] sb H; cbn in H; try discriminate; [reflexivity|].
  cbn [app zip_norm]. f_equal. apply IH. lia.
Qed.

Lemma zip_norm_full l : nonneg l -> zip_norm (map full_sl l) l = map (fun n => (0, n)) l.
Proof.
  induction 1 as [|n l Hn Hl IH]; [reflexivity|]. cbn [map zip_norm]. rewrite IH. f_equal.
  change (full_sl n) with (mk_sl (0, n)). apply norm_ss_mk; lia.
Qed.

Lemma squeeze_full l : forall k ax rest,
  squeeze_axes k ax (map full_sl l ++ rest) = squeeze_axes (k + len l) ax rest.
Proof.
  induction l as [|n l IH]; intros k ax rest; cbn [map app].
  - unfold len; cbn. rewrite Z.add_0_r. reflexivity.
  - cbn [squeeze_axes full_sl]. rewrite IH. f_equal. unfold len; cbn [length]. lia.
Qed.

Lemma squeeze_yx ax ry rx post :
  squeeze_axes ax ax ([ry; rx] ++ map full_sl post) = [].
Proof.
  cbn [app squeeze_axes]. rewrite Z.eqb_refl. cbn [orb].
  replace (ax + 1 =? ax) with false by (symmetry; apply Z.eqb_neq; lia). rewrite Z.eqb_refl. cbn [orb].
  pose proof (squeeze_full post (ax + 1 + 1) ax []) as S. rewrite app_nil_r in S. rewrite S.
  destruct ry; destruct rx; reflexivity.
Qed.

Lemma ba_norm_roi_yx a pre post ny nx ry rx :
  ba_shape a = pre ++ [ny; nx] ++ post -> ba_axis a = len pre -> nonneg pre -> nonneg post ->
  ba_norm_roi a (Some [ry; rx]) =
    Ok (map (fun n => (0, n)) pre ++ [norm_ss ry ny; norm_ss rx nx] ++ map (fun n => (0, n)) post, []).
Proof.
  intros Hs Ha Npre Npost. unfold ba_norm_roi. rewrite Hs, Ha.
  change (len [ry; rx] =? 2) with true. cbv iota.
  rewrite py_slice_pre, py_slice_post by reflexivity. cbn [bind].
  rewrite zip_norm_app by (rewrite map_length; reflexivity). cbn [app zip_norm].
  rewrite !zip_norm_full by assumption.
  rewrite squeeze_full, Z.add_0_l. apply f_equal, f_equal, squeeze_yx.
Qed.

Lemma existsb_neg_full l : nonneg l -> existsb (fun d => d <? 0) (map (fun s : Z * Z => snd s - fst s) (map (fun n => (0, n)) l)) = false.
Proof.
  induction 1 as [|n l Hn Hl IH]; [reflexivity|]. cbn [map existsb fst snd]. rewrite IH.
  destruct (Z.ltb_spec (n - 0) 0); [lia | reflexivity].
Qed.

Lemma drop_axes_nil l : forall k, drop_axes k [] l = l.
Proof. induction l; intros; cbn; [reflexivity | f_equal; auto]. Qed.

(** extract(roi=(ry, rx)) works on the window (normalise ry, normalise rx) of the Y/X plane *)
Lemma ba_plan_yx a pre post ny nx ry rx :
  ba_shape a = pre ++ [ny; nx] ++ post -> ba_axis a = len pre -> nonneg pre -> nonneg post ->
  let wy := norm_ss ry ny in
  let wx := norm_ss rx nx in
  fst wy <= snd wy -> fst wx <= snd wx ->
  exists nroi full, ba_plan a (Some [ry; rx]) = Ok (nroi, (wy, wx), full, full) /\
                    full = pre ++ [snd wy - fst wy; snd wx - fst wx] ++ post.
Proof.
  intros Hs Ha Npre Npost wy wx Hy Hx. unfold ba_plan.
  rewrite (ba_norm_roi_yx a pre post ny nx ry rx Hs Ha Npre Npost). cbn [bind].
  rewrite Hs, Ha. fold wy wx.
  rewrite !len_app, !len_map. change (len [wy; wx]) with 2. change (len [ny; nx]) with 2.
  rewrite Z.eqb_refl. cbn [negb].
  rewrite py_slice_mid by (rewrite ?len_map; reflexivity).
  rewrite !map_app, existsb_app, existsb_app.
  rewrite !existsb_neg_full by assumption. cbn [map existsb fst snd orb].
  destruct (Z.ltb_spec (snd wy - fst wy) 0); [lia|]. destruct (Z.ltb_spec (snd wx - fst wx) 0); [lia|].
  cbn [orb]. rewrite drop_axes_nil. eexists; eexists; split; [reflexivity|].
  rewrite !map_map. cbn [fst snd].
  assert (M : forall l : list Z, map (fun x => x - 0) l = l)
    by (intros l; rewrite <- (map_id l) at 2; apply map_ext, Z.sub_0_r).
  rewrite !M. reflexivity.
Qed.

Lemma dsum_add_comm s a b : dsum_add (dsum_add s a) b = dsum_add (dsum_add s b) a.
Proof. destruct s as [u i f]; destruct a; destruct b; cbn; f_equal; lia. Qed.

Lemma dsum_fold_perm a b : Permutation a b -> forall s, fold_left dsum_add a s = fold_left dsum_add b s.
Proof.
  induction 1; intros s; cbn [fold_left]; auto.
  - rewrite dsum_add_comm. reflexivity.
  - etransitivity; eauto.
Qed.

(** numpy's array dtypes of the unsigned / signed / floating kinds (float16 is not used) *)
Definition dt_valid (d : dtype) : Prop :=
  match d with
  | DU b | DI b => b = 8 \/ b = 16 \/ b = 32 \/ b = 64
  | DF b => b = 32 \/ b = 64
  end.

(** every value of [d] is a value of [r] (24 / 53 bit significands) *)
Definition dt_holds (d r : dtype) : Prop :=
  match d, r with
  | DU a, DU b => a <= b
  | DU a, DI b => a < b
  | DI a, DI b => a <= b
  | DI _, DU _ => False
  | DU a, DF b | DI a, DF b => (a <= 16 /\ 32 <= b) \/ (a <= 32 /\ 64 <= b)
  | DF a, DF b => a <= b
  | DF _, _ => False
  end.

Definition narrow_int (d : dtype) : Prop :=
  match d with DU b | DI b => b <= 32 | DF _ => True end.

Definition bits_le (d : dtype) (s : dsum) : Prop :=
  match d with DU b => b <= s_ub s | DI b => b <= s_sb s | DF b => b <= s_fb s end.

(** what the sum of valid dtypes with narrow integers satisfies, as far as
    [dsum_result] needs it *)
Definition dsum_ok (s : dsum) : Prop :=
  0 <= s_ub s <= 32 /\ 0 <= s_sb s <= 32 /\ (s_fb s = 0 \/ 32 <= s_fb s <= 64).

Lemma dsum_add_ok s d : dsum_ok s -> dt_valid d -> narrow_int d -> dsum_ok (dsum_add s d).
Proof. unfold dsum_ok. destruct s, d; cbn; lia. Qed.

Lemma dsum_fold_ok l : forall s, dsum_ok s -> Forall dt_valid l -> Forall narrow_int l ->
  dsum_ok (fold_left dsum_add l s).
Proof.
  induction l as [|x l IH]; intros s Hs V N; [exact Hs|].
  inversion V; inversion N; subst. apply IH; [apply dsum_add_ok|..]; assumption.
Qed.

Lemma bits_le_add d s x : bits_le d s \/ d = x -> bits_le d (dsum_add s x).
Proof. intros [H | <-]; destruct s, d; try destruct x; cbn in *; lia. Qed.

Lemma bits_le_fold d l s : bits_le d s \/ In d l -> bits_le d (fold_left dsum_add l s).
Proof. apply (fold_left_covers (fun s d => bits_le d s)). intros a q p. apply bits_le_add. Qed.

(** the case analysis of [dsum_result], one branch per line of numpy's rule *)
Lemma dsum_result_holds s d : dsum_ok s -> dt_valid d -> bits_le d s ->
  dt_holds d (dsum_result s).
Proof.
  unfold dsum_ok, dsum_result. destruct s as [u i f]. cbn [s_ub s_sb s_fb]. intros K V L.
  destruct (Z.ltb_spec 0 f); [destruct (Z.ltb_spec 16 (Z.max u i))|
    destruct (Z.eqb_spec i 0); [|destruct (Z.eqb_spec u 0); [|destruct (Z.ltb_spec u i);
      [|destruct (Z.ltb_spec u 64)]]]];
    destruct d; cbn [dt_holds dt_valid bits_le s_ub s_sb s_fb] in *; lia.
Qed.
