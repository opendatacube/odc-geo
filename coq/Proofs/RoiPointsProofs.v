(** roi_from_points: the envelope of sample points (property C17, last sentence). *)
From Coq Require Import ZArith QArith Qround List Lia.
From OG Require Import Base.ListSel Base.QZ Model.Roi Proofs.RoiProofs.
From OG Require Base.QMinMax.
Import ListNotations.

Lemma Qmin_list_spec d l :
  In (Qmin_list d l) (d :: l) /\ forall v, In v (d :: l) -> (Qmin_list d l <= v)%Q.
Proof. exact (fold_left_sel_spec Qle QMinMax.qmin Qle_trans QMinMax.qmin_case l d). Qed.

Lemma Qmax_list_spec d l :
  In (Qmax_list d l) (d :: l) /\ forall v, In v (d :: l) -> (v <= Qmax_list d l)%Q.
Proof.
  exact (fold_left_sel_spec (fun a b => b <= a)%Q QMinMax.qmax QMinMax.Qge_trans QMinMax.qmax_case l d).
Qed.

Lemma Qmin_list_lb d l v : In v (d :: l) -> (Qmin_list d l <= v)%Q.
Proof. apply Qmin_list_spec. Qed.

Lemma Qmax_list_ub d l v : In v (d :: l) -> (v <= Qmax_list d l)%Q.
Proof. apply Qmax_list_spec. Qed.

Lemma Qmin_list_le_d l d : (Qmin_list d l <= d)%Q.
Proof. apply Qmin_list_lb; left; reflexivity. Qed.

Lemma Qmax_list_ge_d l d : (d <= Qmax_list d l)%Q.
Proof. apply Qmax_list_ub; left; reflexivity. Qed.

Definition align_ok (align : option Z) : Prop :=
  match align with None => True | Some a => (0 < a)%Z end.

Open Scope Z_scope.

Lemma clipZ_range x lo hi : lo <= hi -> lo <= clipZ x lo hi <= hi.
Proof. unfold clipZ; lia. Qed.

Lemma clipZ_le x lo hi y : lo <= y -> x <= y -> clipZ x lo hi <= y.
Proof. unfold clipZ; lia. Qed.

Lemma clipZ_ge x lo hi y : y <= hi -> y <= x -> y <= clipZ x lo hi.
Proof. unfold clipZ; lia. Qed.

Lemma clipZ_mono x y lo hi : x <= y -> clipZ x lo hi <= clipZ y lo hi.
Proof. unfold clipZ; lia. Qed.

Lemma clipZ_in x N d : 0 <= d < N -> (clipZ x 0 N <= d <-> x <= d) /\ (d < clipZ x 0 N <-> d < x).
Proof. unfold clipZ. lia. Qed.

Lemma clipZ_lo x N d : 0 <= d < N -> x <= d -> clipZ x 0 N = Z.max x 0.
Proof. unfold clipZ. lia. Qed.

(** how many i with a <= i < b lie in 0 <= i < N *)
Lemma clipZ_width a b N : a <= b -> 0 <= N -> clipZ b 0 N - clipZ a 0 N = Z.max 0 (Z.min b N - Z.max a 0).
Proof. unfold clipZ. lia. Qed.

Lemma clipZ_aligned x n a : 0 <= n -> x mod a = 0 -> clipZ x 0 n mod a = 0 \/ clipZ x 0 n = n.
Proof.
  intros Hn Hx.
  assert (clipZ x 0 n = x \/ clipZ x 0 n = 0 \/ clipZ x 0 n = n) as [-> | [-> | ->]]
    by (unfold clipZ; lia); auto.
Qed.

(** No alignment is alignment to 1, so the two cases of [axis_from_points] are one. *)
Lemma axis_from_points_eq v vs n padding align lim :
  axis_from_points (v :: vs) n padding align lim =
    (clipZ (align_down (Qclip_floor (Qmin_list v vs) lim - padding) (fill align 1)) 0 n,
     clipZ (align_up (Qclip_ceil (Qmax_list v vs) lim + padding) (fill align 1)) 0 n).
Proof.
  destruct align as [a|]; cbn [axis_from_points fill]; [|rewrite align_down_1, align_up_1];
    reflexivity.
Qed.

Lemma axis_from_points_bounds v vs n padding align lim :
  align_ok align ->
  exists lo hi,
    axis_from_points (v :: vs) n padding align lim = (clipZ lo 0 n, clipZ hi 0 n) /\
    (lo mod fill align 1 = 0 /\
     lo <= Qclip_floor (Qmin_list v vs) lim - padding /\
     Qclip_floor (Qmin_list v vs) lim - padding - lo < fill align 1) /\
    (hi mod fill align 1 = 0 /\
     Qclip_ceil (Qmax_list v vs) lim + padding <= hi /\
     hi - (Qclip_ceil (Qmax_list v vs) lim + padding) < fill align 1).
Proof.
  intros Ha. assert (H : 0 < fill align 1) by (destruct align; [exact Ha | reflexivity]).
  eexists _, _; split; [apply axis_from_points_eq|].
  split; [apply align_down_spec | apply align_up_spec]; exact H.
Qed.

Lemma axis_from_points_within vals n padding align lim :
  0 <= n ->
  let r := axis_from_points vals n padding align lim in 0 <= fst r <= n /\ 0 <= snd r <= n.
Proof.
  intros Hn. destruct vals as [|v vs]; [cbn; lia|].
  rewrite axis_from_points_eq. split; apply clipZ_range; exact Hn.
Qed.

Lemma axis_from_points_spec vals n padding align lim v :
  0 <= n -> 0 <= padding -> align_ok align -> n < lim ->
  In v vals -> (0 <= v)%Q -> (v <= inject_Z n)%Q ->
  let r := axis_from_points vals n padding align lim in
  (inject_Z (fst r) <= v)%Q /\ (v <= inject_Z (snd r))%Q /\
  fst r <= Z.max 0 (Qfloor v - padding) /\ Z.min n (Qceiling v + padding) <= snd r /\
  0 <= fst r <= n /\ 0 <= snd r <= n /\
  match align with
  | None => True
  | Some a => (fst r mod a = 0 \/ fst r = n) /\ (snd r mod a = 0 \/ snd r = n)
  end.
Proof.
  intros Hn Hp Ha Hlim Hin Hv0 Hvn.
  destruct vals as [|v0 vs]; [destruct Hin|].
  assert (F0 : 0 <= Qfloor v) by (apply Qfloor_ge_iff; exact Hv0).
  assert (C0 : Qceiling v <= n) by (apply Qceiling_le_iff; exact Hvn).
  assert (F1 : Qclip_floor (Qmin_list v0 vs) lim <= Qfloor v)
    by (apply clipZ_le; [lia | apply Qfloor_resp_le, Qmin_list_lb, Hin]).
  assert (C1 : Qceiling v <= Qclip_ceil (Qmax_list v0 vs) lim)
    by (apply clipZ_ge; [lia | apply Qceiling_resp_le, Qmax_list_ub, Hin]).
  destruct (axis_from_points_bounds v0 vs n padding align lim Ha)
    as (lo & hi & -> & (Dm & Dl & _) & (Um & Uh & _)).
  cbn [fst snd]. revert Dm Um. (* divisibility facts are kept out of lia's sight *)
  assert (G1 : clipZ lo 0 n <= Z.max 0 (Qfloor v - padding)) by (apply clipZ_le; lia).
  assert (G2 : Z.min n (Qceiling v + padding) <= clipZ hi 0 n) by (apply clipZ_ge; lia).
  assert (G3 : clipZ lo 0 n <= Qfloor v) by lia.
  assert (G4 : Qceiling v <= clipZ hi 0 n) by lia.
  intros Dm Um.
  split; [apply Qfloor_ge_iff; exact G3|]. split; [apply Qceiling_le_iff; exact G4|].
  split; [exact G1|]. split; [exact G2|].
  split; [apply clipZ_range; exact Hn|]. split; [apply clipZ_range; exact Hn|].
  destruct align as [a|]; [|exact I]. split; apply clipZ_aligned; assumption.
Qed.

Lemma keep_finite_in pts xy : In (Some xy) pts -> In xy (keep_finite pts).
Proof.
  intros H; unfold keep_finite; apply in_flat_map. exists (Some xy); split; [exact H|left; reflexivity].
Qed.

Lemma keep_finite_only pts xy : In xy (keep_finite pts) -> In (Some xy) pts.
Proof.
  unfold keep_finite; intros H; apply in_flat_map in H as (p & Hp & Hin).
  destruct p as [q|]; [|destruct Hin]. destruct Hin as [->|[]]. exact Hp.
Qed.

Lemma keep_finite_map_Some l : keep_finite (map Some l) = l.
Proof. induction l as [|p l IH]; simpl; [|rewrite IH]; reflexivity. Qed.

Lemma roi_from_points_axes pts ny nx padding align :
  exists lim,
    roi_from_points pts ny nx padding align =
      (axis_from_points (map snd (keep_finite pts)) ny padding align lim,
       axis_from_points (map fst (keep_finite pts)) nx padding align lim) /\
    (0 <= padding -> align_ok align -> nx < lim /\ ny < lim).
Proof.
  eexists; split; [reflexivity|]. intros Hp Ha. destruct align; simpl in Ha; lia.
Qed.

Lemma roi_from_points_no_points pts ny nx padding align :
  keep_finite pts = [] -> roi_from_points pts ny nx padding align = ((0, 0), (0, 0)).
Proof. intros H; unfold roi_from_points; rewrite H; reflexivity. Qed.
