(** The tilings of odc/geo/roi.py ([Tiles], [VariableSizedTiles]) for property C04.  Both kinds
    are reduced to one axis and to a boundary function [B : Z -> Z] (tile [i] is [B i, B (i+1)));
    an operation of a tiling is then the pair of the operations of its two axes.  [B] is a variable
    in the general lemmas only: the boundary function of a regular axis is [regB N n], that of a
    variable axis with chunks [ch] is [varB ch] (its offset array read by index), and [ax_B A] is
    the one of axis [A]. *)
From Coq Require Import ZArith List Bool Lia.
From OG Require Import Base.Result Base.ListSel Model.Roi Model.Tiles.
From OG Require Proofs.RoiProofs.
Import ListNotations.
Open Scope Z_scope.

Lemma bounds_exists B : forall k, 0 <= k -> forall p, B 0 <= p < B k ->
  exists i, 0 <= i < k /\ B i <= p < B (i + 1).
Proof.
  apply (natlike_ind (fun k => forall p, B 0 <= p < B k -> exists i, 0 <= i < k /\ B i <= p < B (i + 1))).
  - intros; lia.
  - intros k Hk IH p Hp.
    destruct (Z_lt_le_dec p (B k)) as [L | G].
    + destruct (IH p ltac:(lia)) as (i & Hi & Pi). exists i; split; [lia | exact Pi].
    + exists k. replace (k + 1) with (Z.succ k) by lia. lia.
Qed.

Definition wrap_idx (S i : Z) : Z := if i <? 0 then S + i else i.
Definition in_range (K i : Z) : bool := (- K <=? i) && (i <? K).

Lemma wrap_in_range K i : in_range K i = (0 <=? wrap_idx K i) && (wrap_idx K i <? K).
Proof. unfold in_range, wrap_idx. destruct (Z.ltb_spec i 0); lia. Qed.

Lemma in_range_grid S i : 0 <= i < S -> in_range S i = true /\ wrap_idx S i = i.
Proof. intros H. unfold in_range, wrap_idx. destruct (Z.ltb_spec i 0); lia. Qed.

Lemma norm_ss_int i S : norm_ss (SInt i) S = (wrap_idx S i, wrap_idx S i + 1).
Proof. reflexivity. Qed.

Lemma norm_ss_mk a b n : 0 <= a -> 0 <= b -> norm_ss (mk_sl (a, b)) n = (a, b).
Proof.
  intros Ha Hb. unfold norm_ss, mk_sl, norm_slice, wrap_neg, fill; simpl.
  destruct (Z.geb_spec a 0); destruct (Z.geb_spec b 0); try lia; reflexivity.
Qed.

Lemma norm_ss_snd s n : 0 <= fst (norm_ss s n) -> 0 <= snd (norm_ss s n).
Proof.
  destruct s as [i | a b st]; [rewrite norm_ss_int; cbn [fst snd]; lia|].
  intros _. unfold norm_ss, norm_slice, wrap_neg. cbn [snd]. destruct (fill b n >=? 0) eqn:E; lia.
Qed.

Lemma np_at_eq a i :
  np_at a i = if in_range (len a) i then Ok (nthZ a (wrap_idx (len a) i)) else Err EIndex.
Proof. unfold np_at, wrap_idx. rewrite (Z.add_comm i). reflexivity. Qed.

Lemma np_at_in l i : 0 <= i < len l -> np_at l i = Ok (nthZ l i).
Proof. intros H. rewrite np_at_eq. destruct (in_range_grid _ _ H) as (-> & ->). reflexivity. Qed.

Lemma np_at_hi l i : len l <= i -> np_at l i = Err EIndex.
Proof. intros H. rewrite np_at_eq. replace (in_range (len l) i) with false by (unfold in_range; lia). reflexivity. Qed.

Lemma np_at_last l : 0 < len l -> np_at l (-1) = Ok (nthZ l (len l - 1)).
Proof. intros H. rewrite np_at_eq. replace (in_range (len l) (-1)) with true by (unfold in_range; lia). reflexivity. Qed.

Lemma np_at_err a i e : np_at a i = Err e -> e = EIndex.
Proof. rewrite np_at_eq. destruct (in_range _ _); congruence. Qed.

Lemma cdiv_spec N n : 0 < n -> (cdiv N n - 1) * n < N <= cdiv N n * n.
Proof.
  intros Hn. unfold cdiv.
  pose proof (Z.div_mod (- N) n ltac:(lia)) as E.
  pose proof (Z.mod_pos_bound (- N) n Hn) as R.
  set (q := (- N) / n) in *. set (r := (- N) mod n) in *. nia.
Qed.

Lemma cdiv_unique M n k : 0 < n -> (k - 1) * n < M <= k * n -> cdiv M n = k.
Proof. intros Hn H. pose proof (cdiv_spec M n Hn). nia. Qed.

Lemma cdiv_nonneg N n : 0 < n -> 0 <= N -> 0 <= cdiv N n.
Proof. intros Hn HN. pose proof (cdiv_spec N n Hn). nia. Qed.

Lemma cdiv_pos N n : 0 < n -> 0 < N -> 0 < cdiv N n.
Proof. intros Hn HN. pose proof (cdiv_spec N n Hn). nia. Qed.

Lemma cdiv_zero n : 0 < n -> cdiv 0 n = 0.
Proof. intros Hn. apply cdiv_unique; lia. Qed.

Lemma lt_cdiv N n i : 0 < n -> (i * n < N <-> i < cdiv N n).
Proof. intros Hn. pose proof (cdiv_spec N n Hn). split; intros; nia. Qed.

Definition regB (N n i : Z) : Z := Z.min (i * n) N.

Lemma regB_0 N n : 0 <= N -> regB N n 0 = 0.
Proof. unfold regB; lia. Qed.

Lemma regB_S N n : 0 < n -> regB N n (cdiv N n) = N.
Proof. intros Hn. pose proof (cdiv_spec N n Hn). unfold regB; lia. Qed.

Lemma regB_inner N n i : 0 < n -> i < cdiv N n -> regB N n i = i * n.
Proof. intros Hn Hi. apply (lt_cdiv N n i Hn) in Hi. unfold regB; lia. Qed.

Lemma regB_strict N n i : 0 < n -> 0 <= i < cdiv N n -> regB N n i < regB N n (i + 1).
Proof.
  intros Hn Hi. rewrite (regB_inner N n i) by lia.
  pose proof (proj2 (lt_cdiv N n i Hn) ltac:(lia)). unfold regB. nia.
Qed.

(** the three tests of [_slice] say: the first tile exists and the last is at most the count *)
Lemma tiles_slice_eq N n a b : 0 < n ->
  tiles_slice (a, b) N n =
    if (0 <=? a) && (a <? cdiv N n) && (b <=? cdiv N n) then Ok (regB N n a, regB N n b) else Err EIndex.
Proof.
  intros Hn. unfold tiles_slice. cbn [fst snd]. fold (regB N n b).
  pose proof (lt_cdiv N n a Hn) as La. pose proof (lt_cdiv N n (b - 1) Hn) as Lb.
  assert (Ha : 0 <= a * n <-> 0 <= a) by nia.
  replace ((0 <=? a * n) && (a * n <? N) && (b * n <? N + n))
    with ((0 <=? a) && (a <? cdiv N n) && (b <=? cdiv N n)) by lia.
  destruct (Z.ltb_spec a (cdiv N n)); [rewrite (regB_inner N n a) by lia; reflexivity|].
  rewrite andb_false_r. reflexivity.
Qed.

Lemma regB_crop N n a b : 0 < n -> 0 <= a < cdiv N n -> a <= b <= cdiv N n ->
  let N' := regB N n b - regB N n a in
  0 <= N' /\ cdiv N' n = b - a /\
  forall i, 0 <= i <= b - a -> regB N' n i = regB N n (a + i) - regB N n a.
Proof.
  intros Hn Ha Hb. pose proof (cdiv_spec N n Hn) as CS. set (K := cdiv N n) in *.
  rewrite (regB_inner N n a) by lia. intros N'.
  assert (HN' : N' = Z.min ((b - a) * n) (N - a * n)) by (unfold N', regB; lia).
  assert (a * n < N) by nia. split; [nia|]. split.
  - apply cdiv_unique; [assumption|]. rewrite HN'. destruct (Z_lt_le_dec b K).
    + assert (b * n <= N) by nia. nia.
    + assert (b = K) by lia. subst b. nia.
  - intros i Hi. unfold regB at 1 2. rewrite HN'. assert (i * n <= (b - a) * n) by nia. nia.
Qed.

Lemma tile_sz_eq N n i : 0 < n -> 0 < N ->
  let S := cdiv N n in
  let j := wrap_idx S i in
  tile_sz i S n N = if (0 <=? j) && (j <? S) then Ok (regB N n (j + 1) - regB N n j) else Err EIndex.
Proof.
  intros Hn HN S j. unfold tile_sz. fold (wrap_idx S i). fold j.
  assert (HS : 0 < S) by (apply cdiv_pos; lia).
  destruct (Z.eqb_spec j (S - 1)) as [E | NE].
  - replace ((0 <=? j) && (j <? S - 1)) with false by lia. replace ((0 <=? j) && (j <? S)) with true by lia.
    rewrite (regB_inner N n j) by (fold S; lia). replace (j + 1) with S by lia.
    unfold S at 1. rewrite regB_S by lia. reflexivity.
  - replace ((0 <=? j) && (j <? S)) with ((0 <=? j) && (j <? S - 1)) by lia.
    destruct ((0 <=? j) && (j <? S - 1)) eqn:C; [|reflexivity].
    rewrite (regB_inner N n j), (regB_inner N n (j + 1)) by (fold S; lia). f_equal; lia.
Qed.

(** [Tiles.locate] on one axis divides the pixel by the size [m] of tile 0 *)
Lemma locate_div N n p : 0 < n -> 0 <= p < N ->
  let S := cdiv N n in
  let m := regB N n 1 - regB N n 0 in
  0 <= p / m < S /\ regB N n (p / m) <= p < regB N n (p / m + 1).
Proof.
  intros Hn Hp S m. pose proof (cdiv_spec N n Hn) as CS. fold S in CS.
  replace m with (Z.min n N) by (unfold m, regB; lia). unfold regB.
  destruct (Z_le_gt_dec n N) as [L | G].
  - rewrite (Z.min_l n N) by lia.
    pose proof (Z.div_mod p n ltac:(lia)) as E. pose proof (Z.mod_pos_bound p n Hn) as R.
    set (q := p / n) in *. set (r := p mod n) in *.
    assert (0 <= q) by nia. assert (q < S) by nia. split; [lia | nia].
  - rewrite (Z.min_r n N), (Z.div_small p N) by lia. assert (S = 1) by nia. nia.
Qed.

Lemma reg_locate N n p : 0 < n -> 0 <= p < N ->
  exists i, (m <- tile_sz 0 (cdiv N n) n N ;; Ok (p / m)) = Ok i /\
            0 <= i < cdiv N n /\ regB N n i <= p < regB N n (i + 1).
Proof.
  intros Hn Hp. pose proof (cdiv_pos N n Hn ltac:(lia)).
  rewrite (tile_sz_eq N n 0 Hn) by lia. change (wrap_idx (cdiv N n) 0) with 0.
  replace ((0 <=? 0) && (0 <? cdiv N n)) with true by lia.
  eexists; split; [reflexivity|]. apply locate_div; assumption.
Qed.

Definition tot (l : list Z) : Z := fold_right Z.add 0 l.

Lemma fold_left_add l : forall a, fold_left Z.add l a = a + tot l.
Proof. induction l as [|c l IH]; intros a; simpl; [lia | rewrite IH; lia]. Qed.

Lemma sumZ_tot l : sumZ l = tot l.
Proof. unfold sumZ; rewrite fold_left_add; lia. Qed.

Lemma tot_cons c l : tot (c :: l) = c + tot l.
Proof. reflexivity. Qed.

Lemma tot_app a b : tot (a ++ b) = tot a + tot b.
Proof. induction a; simpl; lia. Qed.

Definition nonneg (ch : list Z) : Prop := Forall (fun c => 0 <= c) ch.

Lemma tot_nonneg ch : nonneg ch -> 0 <= tot ch.
Proof. induction 1; simpl; lia. Qed.

(** [cumsum] without the int64 wrap-around *)
Fixpoint psum (acc : Z) (l : list Z) : list Z :=
  match l with
  | [] => []
  | c :: r => (acc + c) :: psum (acc + c) r
  end.

Lemma wrap64_id x : - two63 <= x < two63 -> wrap64 x = x.
Proof. intros H. unfold wrap64. rewrite Z.mod_small; unfold two63 in *; lia. Qed.

Lemma cumsum_pure ch : forall acc, 0 <= acc -> nonneg ch -> acc + tot ch < two63 ->
  cumsum acc ch = psum acc ch.
Proof.
  induction ch as [|c r IH]; intros acc Ha Hn Hs; simpl; [reflexivity|].
  inversion Hn as [|? ? Hc Hr]; subst. simpl in Hs.
  pose proof (tot_nonneg r Hr).
  rewrite wrap64_id by (unfold two63 in *; lia).
  f_equal. apply IH; [lia | assumption | lia].
Qed.

Lemma fits_all ch : nonneg ch -> tot ch < two63 -> forallb fits64 ch = true.
Proof.
  induction 1 as [|c r Hc Hr IH]; intros Hs; [reflexivity|]. rewrite tot_cons in Hs.
  pose proof (tot_nonneg r Hr). cbn [forallb]. rewrite IH by lia. unfold fits64, two63 in *. lia.
Qed.

Lemma vt_offsets_ok ch : nonneg ch -> tot ch < two63 -> vt_offsets ch = Ok (0 :: psum 0 ch).
Proof.
  intros Hn Hs. unfold vt_offsets. rewrite fits_all by assumption.
  rewrite cumsum_pure by (try assumption; lia). reflexivity.
Qed.

Lemma vt_offsets_err ch : forallb fits64 ch = false -> vt_offsets ch = Err EOther.
Proof. intros H; unfold vt_offsets; rewrite H; reflexivity. Qed.

Lemma length_psum ch : forall acc, length (psum acc ch) = length ch.
Proof. induction ch; intros; simpl; auto. Qed.

Lemma nth_psum ch : forall acc k, (k <= length ch)%nat ->
  nth k (acc :: psum acc ch) 0 = acc + tot (firstn k ch).
Proof.
  induction ch as [|c r IH]; intros acc k Hk.
  - simpl in Hk. assert (k = 0%nat) by lia. subst. simpl. lia.
  - destruct k as [|k]; [simpl; lia|].
    simpl in Hk. change (nth (S k) (acc :: psum acc (c :: r)) 0) with (nth k ((acc + c) :: psum (acc + c) r) 0).
    rewrite IH by lia. simpl. lia.
Qed.

Lemma nonneg_split ch k : nonneg ch -> nonneg (firstn k ch) /\ nonneg (skipn k ch).
Proof. intros H. apply Forall_app. unfold nonneg. rewrite firstn_skipn. exact H. Qed.

Definition varB (ch : list Z) (i : Z) : Z := tot (firstn (Z.to_nat i) ch).

Lemma nthZ_offsets ch i : 0 <= i <= len ch -> nthZ (0 :: psum 0 ch) i = varB ch i.
Proof.
  intros Hi. unfold nthZ, varB. rewrite nth_psum by (unfold len in Hi; lia). lia.
Qed.

Lemma varB_0 ch : varB ch 0 = 0.
Proof. reflexivity. Qed.

Lemma varB_len ch : varB ch (len ch) = tot ch.
Proof. unfold varB, len. rewrite Nat2Z.id, firstn_all. reflexivity. Qed.

Lemma varB_step ch i : 0 <= i < len ch -> varB ch (i + 1) = varB ch i + nthZ ch i.
Proof.
  intros Hi. unfold varB, nthZ. replace (Z.to_nat (i + 1)) with (S (Z.to_nat i)) by lia.
  apply lsum_firstn_S.
Qed.

Lemma varB_bounds ch : nonneg ch -> bounds (len ch) (varB ch).
Proof. intros Hn i Hi. unfold varB, tot. apply lsum_firstn_mono; [exact Hn | lia]. Qed.

Lemma len_offsets ch acc : len (acc :: psum acc ch) = len ch + 1.
Proof. unfold len; simpl. rewrite length_psum. lia. Qed.

Lemma diffs_psum ch : forall acc, diffs (acc :: psum acc ch) = ch.
Proof.
  induction ch as [|c r IH]; intros acc; [reflexivity|].
  change (diffs (acc :: psum acc (c :: r))) with ((acc + c - acc) :: diffs ((acc + c) :: psum (acc + c) r)).
  rewrite IH. f_equal. lia.
Qed.

Lemma psum_ge ch : forall acc, nonneg ch -> Forall (fun b => acc <= b) (psum acc ch).
Proof.
  induction ch as [|c r IH]; intros acc Hn; simpl; [constructor|].
  inversion Hn; subst. constructor; [lia|].
  eapply Forall_impl; [|apply IH; assumption]. simpl; intros; lia.
Qed.

Lemma filter_none p l : Forall (fun b => p < b) l -> filter (fun b => b <=? p) l = [].
Proof.
  induction 1 as [|b l Hb Hl IH]; simpl; [reflexivity|].
  destruct (Z.leb_spec b p); [lia | assumption].
Qed.

Lemma count_spec ch : forall acc p, nonneg ch -> acc <= p < acc + tot ch ->
  exists k : nat, length (filter (fun b => b <=? p) (psum acc ch)) = k /\ (k < length ch)%nat /\
                  acc + tot (firstn k ch) <= p < acc + tot (firstn (S k) ch).
Proof.
  induction ch as [|c r IH]; intros acc p Hn Hp; [simpl in Hp; lia|].
  inversion Hn as [|? ? Hc Hr]; subst. simpl in Hp.
  change (psum acc (c :: r)) with ((acc + c) :: psum (acc + c) r).
  cbn [filter]. destruct (Z.leb_spec (acc + c) p) as [L | G].
  - destruct (IH (acc + c) p Hr ltac:(lia)) as (k & Ek & Lk & Pk).
    exists (S k). cbn [length]. rewrite Ek. split; [reflexivity|]. split; [lia|].
    change (firstn (S (S k)) (c :: r)) with (c :: firstn (S k) r).
    change (firstn (S k) (c :: r)) with (c :: firstn k r). rewrite !tot_cons. lia.
  - rewrite filter_none.
    + exists 0%nat. split; [reflexivity|]. split; [simpl; lia|]. simpl. lia.
    + eapply Forall_impl; [|apply psum_ge; assumption]. simpl; intros; lia.
Qed.

Lemma searchsorted_spec ch p : nonneg ch -> 0 <= p < tot ch ->
  let i := searchsorted_right (tl (0 :: psum 0 ch)) p in
  0 <= i < len ch /\ varB ch i <= p < varB ch (i + 1).
Proof.
  intros Hn Hp. simpl tl. unfold searchsorted_right.
  destruct (count_spec ch 0 p Hn ltac:(lia)) as (k & Ek & Lk & Pk).
  assert (E : len (filter (fun b => b <=? p) (psum 0 ch)) = Z.of_nat k)
    by (unfold len; rewrite Ek; reflexivity).
  cbv zeta. rewrite E. unfold len, varB. split; [lia|].
  rewrite Nat2Z.id. replace (Z.to_nat (Z.of_nat k + 1)) with (S k) by lia. lia.
Qed.

Lemma firstn_add {A} (l : list A) : forall a i, firstn (a + i) l = firstn a l ++ firstn i (skipn a l).
Proof.
  induction l as [|x l IH]; intros a i.
  - rewrite !firstn_nil, skipn_nil, firstn_nil. reflexivity.
  - destruct a as [|a]; [reflexivity|]. simpl. f_equal. apply IH.
Qed.

Lemma sel_as_firstn_skipn {A} (l : list A) a b : 0 <= a <= b ->
  sel l a b = firstn (Z.to_nat (b - a)) (skipn (Z.to_nat a) l).
Proof.
  intros H. unfold sel, drop, take. rewrite skipn_firstn_comm. f_equal. lia.
Qed.

Lemma py_sel_in_range {A} (l : list A) a b : 0 <= a <= b -> b <= len l -> py_sel l a b = sel l a b.
Proof. intros Ha Hb. unfold py_sel. rewrite !RoiProofs.py_clamp_in by lia. reflexivity. Qed.

Lemma len_sel_in {A} (l : list A) a b : 0 <= a <= b -> b <= len l -> len (sel l a b) = b - a.
Proof. intros; rewrite len_sel by lia; lia. Qed.

Lemma varB_sel ch a b i : 0 <= a <= b -> 0 <= i <= b - a ->
  varB (sel ch a b) i = varB ch (a + i) - varB ch a.
Proof.
  intros Ha Hi. unfold varB. rewrite sel_as_firstn_skipn by lia.
  rewrite firstn_firstn. replace (Nat.min (Z.to_nat i) (Z.to_nat (b - a))) with (Z.to_nat i) by lia.
  replace (Z.to_nat (a + i)) with (Z.to_nat a + Z.to_nat i)%nat by lia.
  rewrite firstn_add, tot_app. lia.
Qed.

Lemma nonneg_sel ch a b : nonneg ch -> nonneg (sel ch a b).
Proof. intros H. unfold sel, drop, take. apply nonneg_split, nonneg_split, H. Qed.

Lemma tot_sel_le ch a b : nonneg ch -> tot (sel ch a b) <= tot ch.
Proof.
  intros Hn. unfold sel, drop, take. set (l := firstn (Z.to_nat b) ch).
  destruct (nonneg_split ch (Z.to_nat b) Hn) as (H1 & H2). fold l in H1.
  destruct (nonneg_split l (Z.to_nat a) H1) as (H3 & _).
  rewrite <- (firstn_skipn (Z.to_nat b) ch). fold l.
  rewrite <- (firstn_skipn (Z.to_nat a) l) at 2. rewrite !tot_app.
  pose proof (tot_nonneg _ H2). pose proof (tot_nonneg _ H3). lia.
Qed.

(** One axis of either kind: [AReg N n K] has [K] tiles of size [n] on [N] pixels, [AVar off] has
    the offset array [off].  The [ax_*] functions are the per-axis parts of the model's [rt_*]. *)
Inductive axis := AReg (N n K : Z) | AVar (off : list Z).

(* [ax_S]: the count of tiles along the axis. *)
Definition ax_S (A : axis) : Z := match A with AReg _ _ K => K | AVar off => len off - 1 end.
(* [ax_B A i]: the boundary at which tile [i] starts and tile [i - 1] ends. *)
Definition ax_B (A : axis) (i : Z) : Z :=
  match A with AReg N n _ => regB N n i | AVar off => nthZ off i end.
(* [ax_N]: the extent of the axis in pixels, its last boundary. *)
Definition ax_N (A : axis) : Z := ax_B A (ax_S A).
Definition ax_get (A : axis) (s : someslice) : res (Z * Z) :=
  match A with
  | AReg N n K => tiles_slice (norm_ss s K) N n
  | AVar off => let i := norm_ss s (len off - 1) in
                if fst i <? 0 then Err EIndex else vt_slice off i
  end.
Definition ax_sz (A : axis) (i : Z) : res Z :=
  match A with AReg N n K => tile_sz i K n N | AVar off => vt_sz off i end.
Definition ax_loc (A : axis) (p : Z) : res Z :=
  match A with
  | AReg N n K => m <- tile_sz 0 K n N ;; Ok (p / m)
  | AVar off => Ok (searchsorted_right (tl off) p)
  end.
Definition ax_chunks (A : axis) : res (list Z) :=
  match A with
  | AReg N n K => n0 <- tile_sz 0 K n N ;; n1 <- tile_sz (K - 1) K n N ;; Ok (repeatZ n0 (K - 1) ++ [n1])
  | AVar off => Ok (diffs off)
  end.
Definition ax_crop (A : axis) (s : someslice) : res axis :=
  match A with
  | AReg N n K => r <- tiles_slice (norm_ss s K) N n ;;
                  Ok (AReg (snd r - fst r) n (cdiv (snd r - fst r) n))
  | AVar off => let r := norm_ss s (len off - 1) in
                if fst r <? 0 then Err EIndex
                else o <- vt_offsets (py_sel (diffs off) (fst r) (snd r)) ;; Ok (AVar o)
  end.

Definition ax_wf (A : axis) : Prop :=
  match A with
  | AReg N n K => 0 < n /\ 0 <= N /\ K = cdiv N n
  | AVar off => nonneg (diffs off) /\ tot (diffs off) < two63 /\ off = 0 :: psum 0 (diffs off)
  end.

Lemma var_wf_intro ch : nonneg ch -> tot ch < two63 -> ax_wf (AVar (0 :: psum 0 ch)).
Proof. intros H1 H2. unfold ax_wf. rewrite !diffs_psum. auto. Qed.

Lemma var_wf_len off : ax_wf (AVar off) -> len off = len (diffs off) + 1.
Proof. intros (_ & _ & E). rewrite E at 1. apply len_offsets. Qed.

Lemma ax_S_nonneg A : ax_wf A -> 0 <= ax_S A.
Proof.
  destruct A as [N n K | off]; simpl.
  - intros (Hn & HN & ->). apply cdiv_nonneg; assumption.
  - intros H. rewrite (var_wf_len off H). pose proof (len_nonneg (diffs off)). lia.
Qed.

Lemma ax_B_var off i : ax_wf (AVar off) -> 0 <= i <= ax_S (AVar off) ->
  ax_B (AVar off) i = varB (diffs off) i.
Proof.
  intros H Hi. pose proof (var_wf_len off H) as L. destruct H as (_ & _ & E). cbn [ax_S ax_B] in *.
  rewrite E at 1. apply nthZ_offsets. lia.
Qed.

Lemma ax_B_0 A : ax_wf A -> ax_B A 0 = 0.
Proof.
  destruct A as [N n K | off]; simpl.
  - intros (Hn & HN & _). apply regB_0; assumption.
  - intros (_ & _ & E). rewrite E. reflexivity.
Qed.

Lemma ax_bounds A : ax_wf A -> bounds (ax_S A) (ax_B A).
Proof.
  intros H i Hi. destruct A as [N n K | off].
  - simpl in *. destruct H as (Hn & HN & ->). pose proof (regB_strict N n i Hn Hi). lia.
  - rewrite !ax_B_var by (try assumption; lia).
    pose proof (var_wf_len off H) as L. destruct H as (Hnn & _ & _).
    apply (varB_bounds _ Hnn). simpl in Hi. lia.
Qed.

Lemma ax_B_range A i j : ax_wf A -> 0 <= i <= j -> j <= ax_S A ->
  0 <= ax_B A i <= ax_B A j /\ ax_B A j <= ax_N A.
Proof.
  intros H Hi Hj. pose proof (bounds_mono _ _ (ax_bounds A H)) as M. rewrite <- (ax_B_0 A H).
  split; [split|]; apply M; lia.
Qed.

Lemma ax_N_nonneg A : ax_wf A -> 0 <= ax_N A.
Proof. intros H. pose proof (ax_B_range A 0 0 H ltac:(lia) (ax_S_nonneg A H)). lia. Qed.

Lemma ax_N_reg N n K : ax_wf (AReg N n K) -> ax_N (AReg N n K) = N.
Proof. intros (Hn & HN & ->). unfold ax_N; simpl. apply regB_S; assumption. Qed.

Lemma ax_N_var off : ax_wf (AVar off) -> ax_N (AVar off) = tot (diffs off).
Proof.
  intros H. unfold ax_N. rewrite ax_B_var by (try assumption; pose proof (ax_S_nonneg _ H); lia).
  simpl. rewrite (var_wf_len off H). replace (len (diffs off) + 1 - 1) with (len (diffs off)) by lia.
  apply varB_len.
Qed.

Lemma ax_reg_strict N n K i : ax_wf (AReg N n K) -> 0 <= i < K ->
  ax_B (AReg N n K) i < ax_B (AReg N n K) (i + 1).
Proof. intros (Hn & HN & ->) Hi. simpl. apply regB_strict; assumption. Qed.

Lemma ax_var_step off i : ax_wf (AVar off) -> 0 <= i < ax_S (AVar off) ->
  ax_B (AVar off) (i + 1) = ax_B (AVar off) i + nthZ (diffs off) i.
Proof.
  intros H Hi. rewrite !ax_B_var by (try assumption; lia).
  apply varB_step. pose proof (var_wf_len off H). simpl in Hi. lia.
Qed.

Lemma ax_unique A p i j : ax_wf A -> 0 <= i < ax_S A -> 0 <= j < ax_S A ->
  ax_B A i <= p < ax_B A (i + 1) -> ax_B A j <= p < ax_B A (j + 1) -> i = j.
Proof. intros H. apply bounds_unique, ax_bounds, H. Qed.

(** [ax_lim]: the index limit below which a selection must start.  In a lookup the two kinds differ
    in this one point: a selection may start at the very end of a variable axis (and is then
    empty), not of a regular one. *)
Definition ax_lim (A : axis) : Z := match A with AReg _ _ K => K | AVar off => len off end.

Lemma ax_lim_range A : ax_S A <= ax_lim A <= ax_S A + 1.
Proof. destruct A; cbn [ax_S ax_lim]; lia. Qed.

Lemma vt_slice_nonneg off a b : 0 <= a -> 0 <= b ->
  vt_slice off (a, b) =
    if (a <? len off) && (b <? len off) then Ok (nthZ off a, nthZ off b) else Err EIndex.
Proof.
  intros Ha Hb. unfold vt_slice. cbn [fst snd].
  destruct (Z.ltb_spec a (len off)); [rewrite np_at_in by lia | rewrite np_at_hi by lia; reflexivity].
  destruct (Z.ltb_spec b (len off)); [rewrite np_at_in by lia | rewrite np_at_hi by lia]; reflexivity.
Qed.

Lemma vt_slice_err a i e : vt_slice a i = Err e -> e = EIndex.
Proof.
  unfold vt_slice. destruct (np_at a (fst i)) eqn:E1; simpl.
  - destruct (np_at a (snd i)) eqn:E2; simpl; [congruence|].
    intros X; inversion X; subst. eapply np_at_err; eassumption.
  - intros X; inversion X; subst. eapply np_at_err; eassumption.
Qed.

Lemma ax_get_eq A s : ax_wf A ->
  let ab := norm_ss s (ax_S A) in
  ax_get A s = if (0 <=? fst ab) && (fst ab <? ax_lim A) && (snd ab <=? ax_S A)
               then Ok (ax_B A (fst ab), ax_B A (snd ab)) else Err EIndex.
Proof.
  intros H. cbv zeta. destruct A as [N n K | off]; cbn [ax_get ax_S ax_B ax_lim].
  - destruct H as (Hn & _ & ->). rewrite (surjective_pairing (norm_ss _ _)) at 1.
    apply tiles_slice_eq, Hn.
  - pose proof (norm_ss_snd s (len off - 1)) as Hb. set (ab := norm_ss s (len off - 1)) in *.
    destruct (Z.ltb_spec (fst ab) 0); [replace (0 <=? fst ab) with false by lia; reflexivity|].
    rewrite (surjective_pairing ab) at 1. rewrite vt_slice_nonneg by lia.
    replace ((0 <=? fst ab) && (fst ab <? len off) && (snd ab <=? len off - 1))
      with ((fst ab <? len off) && (snd ab <? len off)) by lia.
    reflexivity.
Qed.

Lemma ax_get_int A i : ax_wf A ->
  ax_get A (SInt i) =
    let j := wrap_idx (ax_S A) i in
    if in_range (ax_S A) i then Ok (ax_B A j, ax_B A (j + 1)) else Err EIndex.
Proof.
  intros H. rewrite ax_get_eq, norm_ss_int, wrap_in_range by assumption.
  cbv zeta. cbn [fst snd]. pose proof (ax_lim_range A). set (j := wrap_idx (ax_S A) i).
  replace ((0 <=? j) && (j <? ax_lim A) && (j + 1 <=? ax_S A)) with ((0 <=? j) && (j <? ax_S A)) by lia.
  reflexivity.
Qed.

Lemma ax_get_block A a b : ax_wf A -> 0 <= a < ax_S A -> 0 <= b <= ax_S A ->
  ax_get A (mk_sl (a, b)) = Ok (ax_B A a, ax_B A b).
Proof.
  intros H Ha Hb. rewrite ax_get_eq, norm_ss_mk by (assumption || lia).
  cbv zeta. cbn [fst snd]. pose proof (ax_lim_range A).
  replace ((0 <=? a) && (a <? ax_lim A) && (b <=? ax_S A)) with true by lia. reflexivity.
Qed.

Lemma ax_get_block_var off a b : ax_wf (AVar off) ->
  0 <= a <= ax_S (AVar off) -> 0 <= b <= ax_S (AVar off) ->
  ax_get (AVar off) (mk_sl (a, b)) = Ok (ax_B (AVar off) a, ax_B (AVar off) b).
Proof.
  intros H Ha Hb. rewrite ax_get_eq, norm_ss_mk by (assumption || lia).
  cbv zeta. cbn [fst snd ax_lim ax_S] in *.
  replace ((0 <=? a) && (a <? len off) && (b <=? len off - 1)) with true by lia. reflexivity.
Qed.

Lemma ax_sz_eq A i : ax_wf A -> 0 < ax_S A ->
  ax_sz A i =
    let j := wrap_idx (ax_S A) i in
    if in_range (ax_S A) i then Ok (ax_B A (j + 1) - ax_B A j) else Err EIndex.
Proof.
  intros H HS. rewrite wrap_in_range. cbv zeta. destruct A as [N n K | off].
  - simpl in *. destruct H as (Hn & HN & ES). subst K.
    assert (0 < N) by (destruct (Z.eq_dec N 0) as [-> |]; [rewrite cdiv_zero in HS; lia | lia]).
    apply tile_sz_eq; assumption.
  - cbn [ax_sz ax_S ax_B] in *. unfold vt_sz. fold (wrap_idx (len off - 1) i).
    set (j := wrap_idx (len off - 1) i).
    destruct (Z.leb_spec 0 j); destruct (Z.ltb_spec j (len off - 1)); cbn [andb]; try reflexivity.
    rewrite !np_at_in by lia. reflexivity.
Qed.

Lemma ax_sz_grid A i : ax_wf A -> 0 <= i < ax_S A -> ax_sz A i = Ok (ax_B A (i + 1) - ax_B A i).
Proof.
  intros H Hi. rewrite ax_sz_eq by (assumption || lia).
  destruct (in_range_grid _ _ Hi) as (-> & ->). reflexivity.
Qed.

Lemma ax_loc_spec A p : ax_wf A -> 0 <= p < ax_N A ->
  exists i, ax_loc A p = Ok i /\ 0 <= i < ax_S A /\ ax_B A i <= p < ax_B A (i + 1).
Proof.
  intros H Hp. destruct A as [N n K | off].
  - rewrite ax_N_reg in Hp by assumption. destruct H as (Hn & _ & ->). exact (reg_locate N n p Hn Hp).
  - rewrite ax_N_var in Hp by assumption. pose proof (var_wf_len off H) as L. pose proof H as (Hnn & _ & E).
    pose proof (searchsorted_spec (diffs off) p Hnn Hp) as SS. cbv zeta in SS. rewrite <- E in SS.
    eexists; split; [reflexivity|]. cbn [ax_S] in *. split; [lia|].
    rewrite !ax_B_var by (assumption || (cbn [ax_S]; lia)). apply SS.
Qed.

Lemma len_repeatZ v k : 0 <= k -> len (repeatZ v k) = k.
Proof. intros. unfold len, repeatZ. rewrite repeat_length. lia. Qed.

Lemma tot_repeatZ v k : 0 <= k -> tot (repeatZ v k) = k * v.
Proof.
  intros H. unfold repeatZ. rewrite <- (Z2Nat.id k H) at 2.
  induction (Z.to_nat k) as [|m IH]; [reflexivity|]. cbn [repeat]. rewrite tot_cons, IH. lia.
Qed.

Lemma nthZ_repeatZ_app v k w i : 0 <= i <= k -> nthZ (repeatZ v k ++ [w]) i = if i <? k then v else w.
Proof.
  intros H. unfold nthZ, repeatZ. destruct (Z.ltb_spec i k).
  - rewrite app_nth1, (nth_indep _ 0 v) by (rewrite repeat_length; lia). apply nth_repeat.
  - rewrite app_nth2; rewrite repeat_length; [|lia]. replace i with k by lia. rewrite Nat.sub_diag. reflexivity.
Qed.

Lemma ax_chunks_spec A : ax_wf A -> 0 < ax_S A ->
  exists ch, ax_chunks A = Ok ch /\ len ch = ax_S A /\
             (forall i, 0 <= i < ax_S A -> nthZ ch i = ax_B A (i + 1) - ax_B A i) /\
             tot ch = ax_N A.
Proof.
  intros H HS. destruct A as [N n K | off].
  - pose proof (ax_sz_grid _ 0 H ltac:(lia)) as Z0. pose proof (ax_sz_grid _ (K - 1) H ltac:(cbn in *; lia)) as Z1.
    rewrite ax_N_reg by assumption.
    cbn [ax_S ax_sz ax_B ax_chunks] in *. destruct H as (Hn & HN & ES). rewrite Z0, Z1. cbn [bind].
    eexists; split; [reflexivity|].
    assert (B0 : regB N n 0 = 0) by (apply regB_0; lia).
    assert (BK : regB N n (K - 1 + 1) = N) by (replace (K - 1 + 1) with K by lia; subst K; apply regB_S; lia).
    assert (BK1 : regB N n (K - 1) = (K - 1) * n) by (apply regB_inner; lia).
    assert (B1 : 1 < K -> regB N n (0 + 1) = n) by (intros; rewrite regB_inner; lia).
    split; [|split].
    + rewrite len_app, len_repeatZ by lia. change (len [_]) with 1. lia.
    + intros i Hi. rewrite nthZ_repeatZ_app by lia. destruct (Z.ltb_spec i (K - 1)).
      * rewrite B0, B1, !regB_inner by lia. lia.
      * replace i with (K - 1) by lia. reflexivity.
    + rewrite tot_app, tot_repeatZ, BK, BK1, B0 by lia. cbn [tot fold_right].
      destruct (Z.eq_dec K 1) as [-> | ]; [lia | rewrite B1 by lia; lia].
  - exists (diffs off). split; [reflexivity|]. split; [|split].
    + pose proof (var_wf_len off H). cbn [ax_S]. lia.
    + intros i Hi. rewrite ax_var_step by assumption. lia.
    + symmetry. apply ax_N_var; assumption.
Qed.

Lemma ax_crop_spec A a b : ax_wf A -> 0 <= a < ax_S A -> a <= b <= ax_S A ->
  exists A', ax_crop A (mk_sl (a, b)) = Ok A' /\ ax_wf A' /\ ax_S A' = b - a /\
             (forall i, 0 <= i <= b - a -> ax_B A' i = ax_B A (a + i) - ax_B A a).
Proof.
  intros H Ha Hb. destruct A as [N n K | off].
  - cbn [ax_crop ax_S ax_B] in *. destruct H as (Hn & HN & ->).
    rewrite norm_ss_mk, tiles_slice_eq by lia.
    replace ((0 <=? a) && (a <? cdiv N n) && (b <=? cdiv N n)) with true by lia. cbn [bind fst snd].
    destruct (regB_crop N n a b Hn Ha Hb) as (P & EK & EB).
    eexists; split; [reflexivity|]. split; [exact (conj Hn (conj P eq_refl))|]. split; assumption.
  - pose proof (var_wf_len off H) as L. pose proof H as (Hnn & Hs & _). cbn [ax_crop ax_S] in *.
    set (ch := diffs off) in *.
    pose proof (nonneg_sel ch a b Hnn) as Hn'. pose proof (tot_sel_le ch a b Hnn) as Ht'.
    rewrite norm_ss_mk by lia. cbn [fst snd]. replace (a <? 0) with false by lia.
    rewrite py_sel_in_range, vt_offsets_ok by (assumption || lia). cbn [bind].
    eexists; split; [reflexivity|]. split; [|split].
    + apply var_wf_intro; [assumption | lia].
    + cbn [ax_S]. rewrite len_offsets, len_sel_in by lia. lia.
    + intros i Hi. rewrite !(ax_B_var off) by (assumption || (cbn [ax_S]; lia)). fold ch. cbn [ax_B].
      rewrite nthZ_offsets by (rewrite len_sel_in by lia; lia). apply varB_sel; lia.
Qed.

Definition rt_y (t : rtiles) : axis :=
  match t with
  | RReg t => AReg (fst (t_base t)) (fst (t_tile t)) (fst (t_shape t))
  | RVar v => AVar (v_offy v)
  end.
Definition rt_x (t : rtiles) : axis :=
  match t with
  | RReg t => AReg (snd (t_base t)) (snd (t_tile t)) (snd (t_shape t))
  | RVar v => AVar (v_offx v)
  end.
Definition rt_wf (t : rtiles) : Prop := ax_wf (rt_y t) /\ ax_wf (rt_x t).

Lemma rt_shape_axes t : rt_shape t = (ax_S (rt_y t), ax_S (rt_x t)).
Proof. destruct t as [t | v]; [destruct t as [b tl [sy sx]]|]; reflexivity. Qed.

(** [VariableSizedTiles.__getitem__] tests both start indices before it looks anything up;
    all its errors are IndexError, so the order does not show *)
Lemma rt_getitem_axes t idx :
  rt_getitem t idx = (y <- ax_get (rt_y t) (fst idx) ;; x <- ax_get (rt_x t) (snd idx) ;; Ok (y, x)).
Proof.
  destruct t as [t | v]; [reflexivity|].
  cbn [rt_getitem rt_y rt_x ax_get]. unfold vt_getitem, vt_shape. cbn [fst snd].
  destruct (fst (norm_ss (fst idx) (len (v_offy v) - 1)) <? 0); [reflexivity|].
  destruct (fst (norm_ss (snd idx) (len (v_offx v) - 1)) <? 0); cbn [orb]; [|reflexivity].
  destruct (vt_slice (v_offy v) _) eqn:E; cbn [bind]; [reflexivity|].
  apply vt_slice_err in E. subst. reflexivity.
Qed.

Lemma rt_tile_shape_axes t idx :
  rt_tile_shape t idx = (ny <- ax_sz (rt_y t) (fst idx) ;; nx <- ax_sz (rt_x t) (snd idx) ;; Ok (ny, nx)).
Proof. destruct t; reflexivity. Qed.

Lemma rt_base_axes t : rt_wf t -> rt_base t = Ok (ax_N (rt_y t), ax_N (rt_x t)).
Proof.
  intros (Hy & Hx). destruct t as [t | v]; cbn [rt_base rt_y rt_x] in *.
  - rewrite !ax_N_reg by assumption. destruct (t_base t); reflexivity.
  - unfold vt_base, ax_N. cbn [ax_S ax_B].
    pose proof (var_wf_len _ Hy). pose proof (var_wf_len _ Hx).
    pose proof (len_nonneg (diffs (v_offy v))). pose proof (len_nonneg (diffs (v_offx v))).
    rewrite !np_at_last by lia. reflexivity.
Qed.

Lemma rt_base_inv t NY NX : rt_wf t -> rt_base t = Ok (NY, NX) -> ax_N (rt_y t) = NY /\ ax_N (rt_x t) = NX.
Proof. intros W H. rewrite rt_base_axes in H by assumption. inversion H. auto. Qed.

Lemma rt_locate_axes t y x : rt_wf t ->
  rt_locate t (y, x) =
    if (y <? 0) || (y >=? ax_N (rt_y t)) || (x <? 0) || (x >=? ax_N (rt_x t)) then Err EIndex
    else (iy <- ax_loc (rt_y t) y ;; ix <- ax_loc (rt_x t) x ;; Ok (iy, ix)).
Proof.
  intros W. pose proof (rt_base_axes t W) as B. destruct W as (Hy & Hx). destruct t as [t | v].
  - cbn [rt_locate rt_y rt_x rt_base ax_loc] in *. unfold tiles_locate, tiles_tile_shape.
    rewrite !ax_N_reg by assumption.
    destruct (t_base t) as [NY NX]. cbn [fst snd] in *.
    destruct ((y <? 0) || (y >=? NY) || (x <? 0) || (x >=? NX)); [reflexivity|].
    cbn [fst snd].
    destruct (tile_sz 0 (fst (t_shape t)) (fst (t_tile t)) NY); cbn [bind]; [|reflexivity].
    destruct (tile_sz 0 (snd (t_shape t)) (snd (t_tile t)) NX); cbn [bind]; reflexivity.
  - cbn [rt_locate rt_y rt_x rt_base ax_loc] in *. unfold vt_locate. rewrite B. cbn [bind].
    destruct ((y <? 0) || (y >=? _) || (x <? 0) || (x >=? _)); reflexivity.
Qed.

Lemma rt_chunks_from_axes t chy chx :
  ax_chunks (rt_y t) = Ok chy -> ax_chunks (rt_x t) = Ok chx -> rt_chunks t = Ok (chy, chx).
Proof.
  intros Ey Ex. destruct t as [t | v]; cbn [rt_chunks rt_y rt_x ax_chunks] in *.
  - unfold tiles_chunks, tiles_tile_shape. cbn [fst snd].
    destruct (tile_sz 0 (fst (t_shape t)) _ _); cbn [bind] in *; [|discriminate].
    destruct (tile_sz 0 (snd (t_shape t)) _ _); cbn [bind] in *; [|discriminate].
    destruct (tile_sz (fst (t_shape t) - 1) _ _ _); cbn [bind] in *; [|discriminate].
    destruct (tile_sz (snd (t_shape t) - 1) _ _ _); cbn [bind] in *; [|discriminate].
    cbn [fst snd]. congruence.
  - unfold vt_chunks. congruence.
Qed.

Lemma rt_crop_from_axes t roi Ay Ax : rt_wf t ->
  ax_crop (rt_y t) (fst roi) = Ok Ay -> ax_crop (rt_x t) (snd roi) = Ok Ax ->
  exists t', rt_crop t roi = Ok t' /\ rt_y t' = Ay /\ rt_x t' = Ax.
Proof.
  intros (Wy & Wx) Ey Ex. destruct t as [t | v].
  - cbn [rt_crop rt_y rt_x ax_crop ax_wf] in *. unfold tiles_crop, tiles_getitem.
    destruct (tiles_slice (norm_ss (fst roi) _) _ _) as [ry|]; cbn [bind] in *; [|discriminate].
    destruct (tiles_slice (norm_ss (snd roi) _) _ _) as [rx|]; cbn [bind] in *; [|discriminate].
    unfold tiles_init, roi_shape2. cbn [fst snd].
    destruct (Z.eqb_spec (fst (t_tile t)) 0); [lia|]. destruct (Z.eqb_spec (snd (t_tile t)) 0); [lia|].
    cbn [orb bind]. eexists; split; [reflexivity|]. cbn [rt_y rt_x t_base t_tile t_shape fst snd].
    split; congruence.
  - cbn [rt_crop rt_y rt_x ax_crop] in *. unfold vt_crop, vt_shape, vt_chunks. cbn [fst snd].
    destruct (fst (norm_ss (fst roi) _) <? 0); [discriminate|].
    destruct (fst (norm_ss (snd roi) _) <? 0); [discriminate|]. cbn [orb].
    unfold vt_init.
    destruct (vt_offsets (py_sel (diffs (v_offy v)) _ _)); cbn [bind] in *; [|discriminate].
    destruct (vt_offsets (py_sel (diffs (v_offx v)) _ _)); cbn [bind] in *; [|discriminate].
    eexists; split; [reflexivity|]. cbn [rt_y rt_x v_offy v_offx]. split; congruence.
Qed.

Definition in_grid (t : rtiles) (rc : Z * Z) : Prop :=
  0 <= fst rc < fst (rt_shape t) /\ 0 <= snd rc < snd (rt_shape t).
Definition in_roi (r : (Z * Z) * (Z * Z)) (p : Z * Z) : Prop :=
  fst (fst r) <= fst p < snd (fst r) /\ fst (snd r) <= snd p < snd (snd r).
Definition By (t : rtiles) := ax_B (rt_y t).
Definition Bx (t : rtiles) := ax_B (rt_x t).
Definition tile_region (t : rtiles) (rc : Z * Z) : (Z * Z) * (Z * Z) :=
  ((By t (fst rc), By t (fst rc + 1)), (Bx t (snd rc), Bx t (snd rc + 1))).
Definition block_region (t : rtiles) (blk : (Z * Z) * (Z * Z)) : (Z * Z) * (Z * Z) :=
  ((By t (fst (fst blk)), By t (snd (fst blk))), (Bx t (fst (snd blk)), Bx t (snd (snd blk)))).
Definition valid_block (t : rtiles) (blk : (Z * Z) * (Z * Z)) : Prop :=
  0 <= fst (fst blk) < fst (rt_shape t) /\ fst (fst blk) <= snd (fst blk) <= fst (rt_shape t) /\
  0 <= fst (snd blk) < snd (rt_shape t) /\ fst (snd blk) <= snd (snd blk) <= snd (rt_shape t).
Definition shift_roi (r : (Z * Z) * (Z * Z)) (o : Z * Z) : (Z * Z) * (Z * Z) :=
  ((fst (fst r) + fst o, snd (fst r) + fst o), (fst (snd r) + snd o, snd (snd r) + snd o)).

Lemma tiles_init_eq base tile : fst tile <> 0 -> snd tile <> 0 ->
  tiles_init base tile =
    Ok {| t_base := base; t_tile := tile;
          t_shape := (cdiv (fst base) (fst tile), cdiv (snd base) (snd tile)) |}.
Proof.
  intros Hy Hx. unfold tiles_init.
  destruct (Z.eqb_spec (fst tile) 0); [lia|]. destruct (Z.eqb_spec (snd tile) 0); [lia|]. reflexivity.
Qed.

Lemma tiles_init_err base tile : tiles_init base tile = Err EOther <-> fst tile = 0 \/ snd tile = 0.
Proof.
  unfold tiles_init. destruct (Z.eqb_spec (fst tile) 0); destruct (Z.eqb_spec (snd tile) 0); cbn [orb];
    split; intros H; try reflexivity; try discriminate; tauto.
Qed.

Lemma tiles_init_inv base tile t :
  0 < fst tile -> 0 < snd tile -> 0 <= fst base -> 0 <= snd base -> tiles_init base tile = Ok t ->
  rt_wf (RReg t) /\ t_base t = base /\ t_tile t = tile /\
  t_shape t = (cdiv (fst base) (fst tile), cdiv (snd base) (snd tile)).
Proof.
  intros H1 H2 H3 H4 E. rewrite tiles_init_eq in E by lia. inversion E. repeat split; assumption.
Qed.

Lemma vt_init_spec chy chx : nonneg chy -> nonneg chx -> tot chy < two63 -> tot chx < two63 ->
  let v := {| v_offy := 0 :: psum 0 chy; v_offx := 0 :: psum 0 chx |} in
  vt_init chy chx = Ok v /\
  rt_wf (RVar v) /\ rt_shape (RVar v) = (len chy, len chx) /\
  rt_base (RVar v) = Ok (sumZ chy, sumZ chx) /\ rt_chunks (RVar v) = Ok (chy, chx) /\
  (forall i, 0 <= i <= len chy -> By (RVar v) i = sumZ (firstn (Z.to_nat i) chy)) /\
  (forall j, 0 <= j <= len chx -> Bx (RVar v) j = sumZ (firstn (Z.to_nat j) chx)).
Proof.
  intros Ny Nx Ty Tx v.
  assert (W : rt_wf (RVar v)) by (split; apply var_wf_intro; assumption).
  split; [|split; [exact W|split; [|split; [|split; [|split]]]]].
  - unfold vt_init. rewrite !vt_offsets_ok by assumption. reflexivity.
  - cbn [rt_shape]. unfold vt_shape, v. cbn [v_offy v_offx]. rewrite !len_offsets. f_equal; lia.
  - rewrite rt_base_axes by assumption. destruct W as (Wy & Wx). cbn [rt_y rt_x v v_offy v_offx] in *.
    rewrite (ax_N_var _ Wy), (ax_N_var _ Wx), !diffs_psum, !sumZ_tot. reflexivity.
  - cbn [rt_chunks]. unfold vt_chunks, v. cbn [v_offy v_offx]. rewrite !diffs_psum. reflexivity.
  - intros i Hi. rewrite sumZ_tot. apply nthZ_offsets, Hi.
  - intros j Hj. rewrite sumZ_tot. apply nthZ_offsets, Hj.
Qed.

Lemma rt_index t r c : rt_wf t ->
  let S := rt_shape t in
  rt_getitem t (int_idx (r, c)) =
    if in_range (fst S) r && in_range (snd S) c
    then Ok (tile_region t (wrap_idx (fst S) r, wrap_idx (snd S) c)) else Err EIndex.
Proof.
  intros (Hy & Hx). cbv zeta. rewrite rt_getitem_axes, rt_shape_axes. cbn [fst snd int_idx].
  rewrite (ax_get_int _ r Hy), (ax_get_int _ c Hx). cbv zeta.
  destruct (in_range (ax_S (rt_y t)) r); cbn [bind andb]; [|reflexivity].
  destruct (in_range (ax_S (rt_x t)) c); reflexivity.
Qed.

Lemma rt_index_grid t rc : rt_wf t -> in_grid t rc ->
  rt_getitem t (int_idx rc) = Ok (tile_region t rc).
Proof.
  intros W (G1 & G2). destruct rc as (r, c). rewrite rt_index by assumption. cbv zeta. cbn [fst snd] in *.
  destruct (in_range_grid _ _ G1) as (-> & ->). destruct (in_range_grid _ _ G2) as (-> & ->). reflexivity.
Qed.

Lemma rt_tile_shape_grid t rc : rt_wf t -> in_grid t rc ->
  rt_tile_shape t rc = Ok (roi_shape2 (tile_region t rc)).
Proof.
  intros (Hy & Hx) G. unfold in_grid in G. rewrite rt_shape_axes in G.
  rewrite rt_tile_shape_axes, !ax_sz_grid by tauto. reflexivity.
Qed.

Lemma block_region_inside t blk : rt_wf t -> valid_block t blk ->
  let r := block_region t blk in
  0 <= fst (fst r) <= snd (fst r) /\ snd (fst r) <= ax_N (rt_y t) /\
  0 <= fst (snd r) <= snd (snd r) /\ snd (snd r) <= ax_N (rt_x t).
Proof.
  intros (Wy & Wx) V. unfold valid_block in V. rewrite rt_shape_axes in V. cbn [fst snd] in *.
  pose proof (ax_B_range _ (fst (fst blk)) (snd (fst blk)) Wy ltac:(lia) ltac:(lia)).
  pose proof (ax_B_range _ (fst (snd blk)) (snd (snd blk)) Wx ltac:(lia) ltac:(lia)). tauto.
Qed.

Lemma rt_region_inside t rc : rt_wf t -> in_grid t rc ->
  let r := tile_region t rc in
  0 <= fst (fst r) <= snd (fst r) /\ snd (fst r) <= ax_N (rt_y t) /\
  0 <= fst (snd r) <= snd (snd r) /\ snd (snd r) <= ax_N (rt_x t).
Proof.
  intros W G. apply (block_region_inside t ((fst rc, fst rc + 1), (snd rc, snd rc + 1)) W).
  unfold valid_block, in_grid in *. cbn [fst snd]. lia.
Qed.

Lemma in_roi_inside t rc p : rt_wf t -> in_grid t rc -> in_roi (tile_region t rc) p ->
  0 <= fst p < ax_N (rt_y t) /\ 0 <= snd p < ax_N (rt_x t).
Proof.
  intros W G P. pose proof (rt_region_inside t rc W G) as RI. unfold in_roi in P. cbv zeta in RI. lia.
Qed.

Lemma rt_disjoint t rc rc' p : rt_wf t -> in_grid t rc -> in_grid t rc' ->
  in_roi (tile_region t rc) p -> in_roi (tile_region t rc') p -> rc = rc'.
Proof.
  intros (Wy & Wx). unfold in_grid. rewrite rt_shape_axes. intros (G1 & G2) (G1' & G2') (P1 & P2) (P1' & P2').
  destruct rc, rc'. cbn [fst snd] in *. f_equal.
  - exact (ax_unique _ (fst p) _ _ Wy G1 G1' P1 P1').
  - exact (ax_unique _ (snd p) _ _ Wx G2 G2' P2 P2').
Qed.

Lemma rt_locate_spec t y x : rt_wf t ->
  match rt_locate t (y, x) with
  | Ok rc => in_grid t rc /\ in_roi (tile_region t rc) (y, x)
  | Err e => e = EIndex /\ ~ (0 <= y < ax_N (rt_y t) /\ 0 <= x < ax_N (rt_x t))
  end.
Proof.
  intros W. rewrite rt_locate_axes by assumption. destruct W as (Wy & Wx).
  destruct (Z.ltb_spec y 0); [split; [reflexivity | lia]|].
  destruct (Z.geb_spec y (ax_N (rt_y t))); [split; [reflexivity | lia]|].
  destruct (Z.ltb_spec x 0); [split; [reflexivity | lia]|].
  destruct (Z.geb_spec x (ax_N (rt_x t))); [split; [reflexivity | lia]|]. cbn [orb].
  destruct (ax_loc_spec _ y Wy ltac:(lia)) as (r & -> & Rr & Pr).
  destruct (ax_loc_spec _ x Wx ltac:(lia)) as (c & -> & Rc & Pc).
  cbn [bind]. unfold in_grid. rewrite rt_shape_axes. split; [split | split]; assumption.
Qed.

Lemma rt_locate_outside t y x : rt_wf t ->
  ~ (0 <= y < ax_N (rt_y t) /\ 0 <= x < ax_N (rt_x t)) -> rt_locate t (y, x) = Err EIndex.
Proof.
  intros W H. pose proof (rt_locate_spec t y x W) as L. destruct (rt_locate t (y, x)) as [rc | e].
  - destruct H. apply (in_roi_inside t rc (y, x) W); apply L.
  - destruct L as (-> & _). reflexivity.
Qed.

Lemma rt_locate_iff t y x rc : rt_wf t ->
  (rt_locate t (y, x) = Ok rc <-> in_grid t rc /\ in_roi (tile_region t rc) (y, x)).
Proof.
  intros W. pose proof (rt_locate_spec t y x W) as L. split.
  - intros E. rewrite E in L. exact L.
  - intros (G & P). destruct (rt_locate t (y, x)) as [rc' | e].
    + f_equal. destruct L. apply (rt_disjoint t rc' rc (y, x)); assumption.
    + destruct L as (_ & []). exact (in_roi_inside t rc (y, x) W G P).
Qed.

Lemma rt_block t blk : rt_wf t -> valid_block t blk ->
  rt_getitem t (mk_roi blk) = Ok (block_region t blk).
Proof.
  intros (Wy & Wx) V. unfold valid_block in V. rewrite rt_shape_axes in V. cbn [fst snd] in V.
  rewrite rt_getitem_axes. destruct blk as ((a, b), (c, d)). cbn [fst snd mk_roi] in *.
  rewrite (ax_get_block _ a b Wy) by lia. rewrite (ax_get_block _ c d Wx) by lia. reflexivity.
Qed.

Lemma rt_crop_spec t blk : rt_wf t -> valid_block t blk ->
  let o := (By t (fst (fst blk)), Bx t (fst (snd blk))) in
  exists t', rt_crop t (mk_roi blk) = Ok t' /\ rt_wf t' /\
    rt_shape t' = (snd (fst blk) - fst (fst blk), snd (snd blk) - fst (snd blk)) /\
    rt_base t' = Ok (roi_shape2 (block_region t blk)) /\
    forall rc rc', in_grid t' rc' -> fst rc = fst (fst blk) + fst rc' -> snd rc = fst (snd blk) + snd rc' ->
      in_grid t rc /\ tile_region t rc = shift_roi (tile_region t' rc') o.
Proof.
  intros W V o. pose proof W as (Wy & Wx). unfold valid_block in V. rewrite rt_shape_axes in V.
  destruct blk as ((a, b), (c, d)). cbn [fst snd] in *.
  destruct (ax_crop_spec _ a b Wy ltac:(lia) ltac:(lia)) as (Ay & Ey & WAy & SAy & BAy).
  destruct (ax_crop_spec _ c d Wx ltac:(lia) ltac:(lia)) as (Ax & Ex & WAx & SAx & BAx).
  destruct (rt_crop_from_axes t (mk_roi ((a, b), (c, d))) Ay Ax W Ey Ex) as (t' & Et & <- & <-).
  assert (W' : rt_wf t') by (split; assumption).
  exists t'. split; [exact Et|]. split; [exact W'|]. rewrite rt_shape_axes, SAy, SAx. split; [reflexivity|]. split.
  - rewrite rt_base_axes by assumption. unfold ax_N. rewrite SAy, SAx, BAy, BAx by lia.
    unfold roi_shape2, block_region, By, Bx. cbn [fst snd]. repeat f_equal; lia.
  - unfold in_grid. rewrite !rt_shape_axes, SAy, SAx. cbn [fst snd]. intros (r, k) (r', k') G Er Ek.
    cbn [fst snd] in *. subst r k. split; [lia|]. unfold tile_region, shift_roi, o, By, Bx. cbn [fst snd].
    rewrite (BAy r'), (BAy (r' + 1)), (BAx k'), (BAx (k' + 1)), <- !Z.add_assoc, !Z.sub_add by lia.
    reflexivity.
Qed.

Lemma shifted_getitem t t' rc rc' o : rt_wf t -> rt_wf t' -> in_grid t' rc' ->
  in_grid t rc /\ tile_region t rc = shift_roi (tile_region t' rc') o ->
  exists r', rt_getitem t' (int_idx rc') = Ok r' /\ rt_getitem t (int_idx rc) = Ok (shift_roi r' o).
Proof.
  intros W W' G' (G & E). exists (tile_region t' rc'). rewrite !rt_index_grid, E by assumption. auto.
Qed.

Lemma clip_tiles_spec t p r : rt_wf t -> Forall (in_grid t) (p :: r) ->
  exists t' y1 y2 x1 x2,
    clip_tiles t (p :: r) =
      Ok (t', ((y1, y2 + 1), (x1, x2 + 1)), map (fun yx => (fst yx - y1, snd yx - x1)) (p :: r)) /\
    valid_block t ((y1, y2 + 1), (x1, x2 + 1)) /\
    rt_crop t (mk_roi ((y1, y2 + 1), (x1, x2 + 1))) = Ok t' /\ rt_wf t' /\
    In y1 (map fst (p :: r)) /\ In y2 (map fst (p :: r)) /\
    In x1 (map snd (p :: r)) /\ In x2 (map snd (p :: r)) /\
    Forall (fun yx => let n := (fst yx - y1, snd yx - x1) in
              in_grid t' n /\ in_grid t yx /\
              tile_region t yx = shift_roi (tile_region t' n) (By t y1, Bx t x1)) (p :: r).
Proof.
  intros W G. unfold clip_tiles.
  destruct (fold_left_min_spec (map fst r) (fst p)) as (Iy1 & Ly1).
  destruct (fold_left_min_spec (map snd r) (snd p)) as (Ix1 & Lx1).
  destruct (fold_left_max_spec (map fst r) (fst p)) as (Iy2 & Ly2).
  destruct (fold_left_max_spec (map snd r) (snd p)) as (Ix2 & Lx2).
  set (y1 := fold_left Z.min (map fst r) (fst p)) in *.
  set (x1 := fold_left Z.min (map snd r) (snd p)) in *.
  set (y2 := fold_left Z.max (map fst r) (fst p)) in *.
  set (x2 := fold_left Z.max (map snd r) (snd p)) in *.
  change (fst p :: map fst r) with (map fst (p :: r)) in *.
  change (snd p :: map snd r) with (map snd (p :: r)) in *.
  rewrite Forall_forall in G.
  assert (GY : forall v, In v (map fst (p :: r)) -> 0 <= v < fst (rt_shape t))
    by (intros v (q & <- & Hq)%in_map_iff; apply (G q Hq)).
  assert (GX : forall v, In v (map snd (p :: r)) -> 0 <= v < snd (rt_shape t))
    by (intros v (q & <- & Hq)%in_map_iff; apply (G q Hq)).
  assert (V : valid_block t ((y1, y2 + 1), (x1, x2 + 1))).
  { pose proof (GY _ Iy1). pose proof (GY _ Iy2). pose proof (GX _ Ix1). pose proof (GX _ Ix2).
    pose proof (Ly1 _ Iy2). pose proof (Lx1 _ Ix2). unfold valid_block. cbn [fst snd]. lia. }
  destruct (rt_crop_spec t _ W V) as (t' & Et & W' & S' & _ & T). cbn [fst snd] in S', T.
  rewrite Et. cbn [bind]. exists t', y1, y2, x1, x2. repeat (split; [assumption || reflexivity|]).
  apply Forall_forall. intros q Hq. cbv zeta.
  pose proof (Ly1 _ (in_map fst _ _ Hq)). pose proof (Ly2 _ (in_map fst _ _ Hq)).
  pose proof (Lx1 _ (in_map snd _ _ Hq)). pose proof (Lx2 _ (in_map snd _ _ Hq)).
  assert (G' : in_grid t' (fst q - y1, snd q - x1)) by (unfold in_grid; rewrite S'; cbn [fst snd]; lia).
  split; [exact G'|]. apply T; [exact G' | cbn [fst snd]; lia ..].
Qed.

Definition window_of (box : gbox) (r : (Z * Z) * (Z * Z)) : gbox :=
  {| g_oy := g_oy box + fst (fst r); g_ox := g_ox box + fst (snd r);
     g_ny := snd (fst r) - fst (fst r); g_nx := snd (snd r) - fst (snd r) |}.

Lemma gbox_crop_mk g r : 0 <= fst (fst r) -> 0 <= snd (fst r) -> 0 <= fst (snd r) -> 0 <= snd (snd r) ->
  gbox_crop g (mk_roi r) = window_of g r.
Proof.
  destruct r as ((a, b), (c, d)). cbn [fst snd]. intros. unfold gbox_crop, mk_roi. cbn [fst snd].
  rewrite !norm_ss_mk by assumption. reflexivity.
Qed.

Lemma gbt_tile g rc : rt_wf (gb_tiles g) -> in_grid (gb_tiles g) rc ->
  gbt_getitem g (int_idx rc) = Ok (window_of (gb_box g) (tile_region (gb_tiles g) rc)).
Proof.
  intros W G. unfold gbt_getitem. rewrite rt_index_grid by assumption. cbn [bind].
  pose proof (rt_region_inside _ rc W G) as N. cbv zeta in N.
  rewrite gbox_crop_mk by lia. reflexivity.
Qed.

Lemma gbt_getitem_shift g g' rc rc' R :
  rt_wf (gb_tiles g) -> rt_wf (gb_tiles g') -> gb_box g' = window_of (gb_box g) R ->
  in_grid (gb_tiles g') rc' ->
  in_grid (gb_tiles g) rc /\
  tile_region (gb_tiles g) rc = shift_roi (tile_region (gb_tiles g') rc') (fst (fst R), fst (snd R)) ->
  gbt_getitem g' (int_idx rc') = gbt_getitem g (int_idx rc).
Proof.
  intros W W' Eb G' (G & E). rewrite !gbt_tile, E, Eb by assumption.
  unfold window_of, shift_roi. cbn [fst snd g_oy g_ox g_ny g_nx]. f_equal. f_equal; lia.
Qed.

Lemma gbt_crop_spec g blk : rt_wf (gb_tiles g) -> valid_block (gb_tiles g) blk ->
  exists g', gbt_crop g (mk_roi blk) = Ok g' /\
    gb_box g' = window_of (gb_box g) (block_region (gb_tiles g) blk) /\
    rt_crop (gb_tiles g) (mk_roi blk) = Ok (gb_tiles g') /\ rt_wf (gb_tiles g') /\
    forall rc rc', in_grid (gb_tiles g') rc' ->
      fst rc = fst (fst blk) + fst rc' -> snd rc = fst (snd blk) + snd rc' ->
      gbt_getitem g' (int_idx rc') = gbt_getitem g (int_idx rc).
Proof.
  intros W V. unfold gbt_crop. rewrite rt_block by assumption. cbn [bind].
  destruct (rt_crop_spec _ blk W V) as (t' & -> & W' & _ & _ & T). cbn [bind].
  pose proof (block_region_inside _ blk W V) as N. cbv zeta in N. rewrite gbox_crop_mk by lia.
  eexists; split; [reflexivity|]. cbn [gb_box gb_tiles]. repeat (split; [assumption || reflexivity|]).
  intros rc rc' G' Er Ec.
  apply (gbt_getitem_shift g _ rc rc' (block_region (gb_tiles g) blk)); auto.
Qed.

Lemma gbt_clip_spec g p r : rt_wf (gb_tiles g) -> Forall (in_grid (gb_tiles g)) (p :: r) ->
  exists g' y1 x1,
    gbt_clip g (p :: r) = Ok (g', map (fun yx => (fst yx - y1, snd yx - x1)) (p :: r)) /\
    Forall (fun yx => let n := (fst yx - y1, snd yx - x1) in
                      in_grid (gb_tiles g') n /\
                      gbt_getitem g' (int_idx n) = gbt_getitem g (int_idx yx)) (p :: r).
Proof.
  intros W G.
  destruct (clip_tiles_spec _ p r W G) as (t' & y1 & y2 & x1 & x2 & Ec & V & _ & W' & _ & _ & _ & _ & F).
  unfold gbt_clip. rewrite Ec. cbn [bind]. unfold gbt_getitem at 1. rewrite rt_block by assumption. cbn [bind].
  pose proof (block_region_inside _ _ W V) as N. cbv zeta in N. rewrite gbox_crop_mk by lia.
  eexists _, y1, x1. split; [reflexivity|].
  eapply Forall_impl; [|exact F]. cbv zeta. intros yx (G' & T). split; [exact G'|].
  apply (gbt_getitem_shift g _ yx _ (block_region (gb_tiles g) ((y1, y2 + 1), (x1, x2 + 1)))); auto.
Qed.

Lemma reg_empty_base t ty tx NX : 0 < ty -> 0 < tx -> 0 <= NX -> tiles_init (0, NX) (ty, tx) = Ok t ->
  fst (t_shape t) = 0 /\
  (forall r c, tiles_getitem t (int_idx (r, c)) = Err EIndex) /\
  (forall p, tiles_locate t p = Err EIndex) /\
  tiles_chunks t = Err EIndex.
Proof.
  intros Hy Hx HN E.
  destruct (tiles_init_inv (0, NX) (ty, tx) t Hy Hx ltac:(cbn; lia) HN E) as (W & Eb & Et & Es).
  cbn [fst snd] in Es. rewrite cdiv_zero in Es by assumption.
  split; [rewrite Es; reflexivity|]. split; [|split].
  - intros r c. change (tiles_getitem t (int_idx (r, c))) with (rt_getitem (RReg t) (int_idx (r, c))).
    rewrite rt_index by assumption. cbv zeta. cbn [rt_shape]. rewrite Es. cbn [fst].
    replace (in_range 0 r) with false by (unfold in_range; lia). reflexivity.
  - intros (y, x). change (tiles_locate t (y, x)) with (rt_locate (RReg t) (y, x)).
    apply rt_locate_outside; [assumption|]. cbn [rt_y]. rewrite Eb, Et, Es. cbn [fst].
    unfold ax_N, ax_B, ax_S, regB. lia.
  - unfold tiles_chunks, tiles_tile_shape. rewrite Es, Eb, Et. cbn [fst snd]. reflexivity.
Qed.
