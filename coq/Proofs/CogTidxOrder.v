(** [CogMeta.tidx()] lists the tiles in flat-index order:
    [map (flat_tile_idx m) (tidx m) = map Ok [0; 1; ...; num_tiles m - 1]] as a
    list equation.  This is what lets the dask writer use the position of a tile
    in the [tidx] stream as its slot in TileOffsets/TileByteCounts. *)
From Coq Require Import ZArith List Lia.
From OG Require Import Base.Result Model.CogLayout Proofs.CogTilesProofs.
From OG Require Base.ZRange.
Import ListNotations.
Open Scope Z_scope.

Lemma czrange_0 : CogLayout.zrange 0 = [].
Proof. reflexivity. Qed.

Lemma czrange_succ n : 0 <= n -> CogLayout.zrange (n + 1) = CogLayout.zrange n ++ [n].
Proof. exact (ZRange.iota_succ n). Qed.

Lemma czrange_app a b : 0 <= a -> 0 <= b ->
  CogLayout.zrange (a + b) = CogLayout.zrange a ++ map (fun j => a + j) (CogLayout.zrange b).
Proof.
  intros Ha Hb. revert b Hb.
  apply (natlike_ind (fun b => CogLayout.zrange (a + b) =
            CogLayout.zrange a ++ map (fun j => a + j) (CogLayout.zrange b))).
  - rewrite Z.add_0_r, czrange_0. cbn [map]. now rewrite app_nil_r.
  - intros b Hb IH. unfold Z.succ.
    rewrite Z.add_assoc, czrange_succ by lia. rewrite IH.
    rewrite (czrange_succ b) by lia. rewrite map_app, app_assoc. reflexivity.
Qed.

Lemma czrange_grid a b : 0 <= a -> 0 <= b ->
  flat_map (fun i => map (fun j => i * b + j) (CogLayout.zrange b)) (CogLayout.zrange a)
  = CogLayout.zrange (a * b).
Proof.
  intros Ha Hb. revert a Ha.
  apply (natlike_ind (fun a =>
     flat_map (fun i => map (fun j => i * b + j) (CogLayout.zrange b)) (CogLayout.zrange a)
     = CogLayout.zrange (a * b))).
  - reflexivity.
  - intros a Ha IH. unfold Z.succ.
    rewrite czrange_succ by lia. rewrite flat_map_app, IH.
    cbn [flat_map]. rewrite app_nil_r.
    replace ((a + 1) * b) with (a * b + b) by ring.
    rewrite czrange_app by nia. reflexivity.
Qed.

Definition wf_counts (m : meta) : Prop :=
  0 <= num_planes m /\ 0 <= fst (chunked m) /\ 0 <= snd (chunked m).

(** per-plane stream ([CogMeta.tidx(sample_idx=s)], what the dask writer iterates for one
    band of a SYX cube): plane [s] occupies the contiguous flat slots
    [s*ny*nx .. (s+1)*ny*nx) in order *)
Lemma tidx_plane_flat_order m s : wf_counts m -> 0 <= s < num_planes m ->
  map (flat_tile_idx m) (tidx_plane m s) =
  map (fun j => Ok (s * (fst (chunked m) * snd (chunked m)) + j))
      (CogLayout.zrange (fst (chunked m) * snd (chunked m))).
Proof.
  intros (_ & Hy & Hx) Hs. rewrite tidx_plane_eq, <- czrange_grid by assumption. unfold grid_plane.
  rewrite !map_flat_map. apply flat_map_ext_in. intros y Hy'. apply in_zrange in Hy'.
  rewrite !map_map. apply map_ext_in. intros x Hx'. apply in_zrange in Hx'.
  rewrite flat_tile_idx_eq by (red; auto). cbn [flat_idx]. rewrite Z.add_assoc. reflexivity.
Qed.

Lemma tidx_flat_order m : wf_counts m ->
  map (flat_tile_idx m) (tidx m) = map (@Ok Z) (CogLayout.zrange (num_tiles m)).
Proof.
  intros W. pose proof W as (Hs & Hy & Hx). unfold tidx.
  rewrite num_tiles_eq, <- Z.mul_assoc, <- czrange_grid by nia.
  rewrite !map_flat_map. apply flat_map_ext_in. intros s Hs'. apply in_zrange in Hs'.
  rewrite tidx_plane_flat_order, map_map by assumption. reflexivity.
Qed.

Example tidx_flat_order_witness :
  let m := Meta SYX (5, 7) (2, 3) 2 in
  wf_counts m /\ num_tiles m = 18 /\
  map (flat_tile_idx m) (tidx m) = map (@Ok Z) (CogLayout.zrange 18).
Proof. cbv zeta. split; [unfold wf_counts; cbn; lia|]. split; vm_compute; reflexivity. Qed.
