(** C18 — the file sink of Model/FileSink.v: when [finalise] succeeds and what it leaves
    ([sink_finalise_iff], from the appending loop [append_parts_iff]), the directory after a
    sequence of writes ([sink_writes_*]), and the limit accessors ([lim_get_*]). *)
From Coq Require Import ZArith List Bool.
From OG Require Import Base.Result Model.FileSink.
Import ListNotations.
Open Scope Z_scope.

Definition get_nil (parts : list (Z * bytes)) (p : Z) : bytes :=
  match assoc_get p parts with Some b => b | None => [] end.

Lemma assoc_get_del_same k l : assoc_get k (assoc_del k l) = None.
Proof.
  induction l as [|[k' v] r IH]; simpl; auto.
  destruct (Z.eqb_spec k' k); simpl; auto.
  destruct (Z.eqb_spec k' k); auto; congruence.
Qed.

Lemma assoc_get_del_other k k' l : k' <> k -> assoc_get k' (assoc_del k l) = assoc_get k' l.
Proof.
  intros Hne. induction l as [|[k0 v] r IH]; simpl; auto.
  destruct (Z.eqb_spec k0 k); simpl.
  - destruct (Z.eqb_spec k0 k'); auto; congruence.
  - destruct (Z.eqb_spec k0 k'); auto.
Qed.

Lemma assoc_get_set k v l p :
  assoc_get p (assoc_set k v l) = if k =? p then Some v else assoc_get p l.
Proof.
  unfold assoc_set; simpl. destruct (Z.eqb_spec k p); auto.
  apply assoc_get_del_other; auto.
Qed.

Lemma assoc_get_in p l : assoc_get p l <> None <-> In p (map fst l).
Proof.
  induction l as [|[k v] r IH]; simpl.
  - split; [congruence|tauto].
  - destruct (Z.eqb_spec k p).
    + split; [auto|discriminate].
    + rewrite IH. split; [auto|intros [?|?]; [congruence|auto]].
Qed.

Lemma assoc_del_in k l x : In x (assoc_del k l) <-> In x l /\ fst x <> k.
Proof.
  unfold assoc_del. rewrite filter_In. destruct (Z.eqb_spec (fst x) k); simpl; intuition congruence.
Qed.

Lemma assoc_del_keys k l p : In p (map fst (assoc_del k l)) <-> In p (map fst l) /\ p <> k.
Proof.
  rewrite !in_map_iff. split.
  - intros (x & <- & Hx). apply assoc_del_in in Hx. split; [exists x|]; tauto.
  - intros ((x & <- & Hx) & Hne). exists x. rewrite assoc_del_in. tauto.
Qed.

Lemma get_nil_del_map p parts r :
  ~ In p r -> map (get_nil (assoc_del p parts)) r = map (get_nil parts) r.
Proof.
  intros Hn. apply map_ext_in. intros q Hq. unfold get_nil.
  rewrite assoc_get_del_other; [reflexivity|]. intros ->. contradiction.
Qed.

Definition del_all (ps : list Z) (parts : list (Z * bytes)) : list (Z * bytes) :=
  fold_left (fun l p => assoc_del p l) ps parts.

Lemma del_all_in ps : forall parts x, In x (del_all ps parts) <-> In x parts /\ ~ In (fst x) ps.
Proof.
  induction ps as [|p r IH]; simpl; intros parts x.
  - tauto.
  - unfold del_all in *; simpl. rewrite IH, assoc_del_in. intuition congruence.
Qed.

Lemma del_all_nil ps parts :
  del_all ps parts = [] <-> forall p, In p (map fst parts) -> In p ps.
Proof.
  split.
  - intros E p Hp. apply in_map_iff in Hp. destruct Hp as (x & <- & Hx).
    destruct (in_dec Z.eq_dec (fst x) ps) as [|Hn]; [assumption|].
    assert (H : In x (del_all ps parts)) by (apply del_all_in; auto). rewrite E in H. contradiction.
  - intros H. destruct (del_all ps parts) as [|x l] eqn:E; [reflexivity|].
    assert (Hx : In x (del_all ps parts)) by (rewrite E; left; reflexivity).
    apply del_all_in in Hx. destruct Hx as (Hx & Hn). exfalso. apply Hn, H, in_map, Hx.
Qed.

(** the appending loop of [finalise] after the empty-part fix, without [keep_parts] *)
Lemma append_parts_iff ps : forall acc parts res,
  append_parts false false ps acc parts = Ok res <->
  NoDup ps /\ (forall p, In p ps -> In p (map fst parts)) /\
  res = (acc ++ concat (map (get_nil parts) ps), del_all ps parts).
Proof.
  induction ps as [|p r IH]; simpl; intros acc parts res.
  - rewrite app_nil_r. split.
    + intros [= <-]. split; [constructor|split; [contradiction|reflexivity]].
    + intros (_ & _ & ->). reflexivity.
  - pose proof (assoc_get_in p parts) as Hp. unfold get_nil at 1.
    destruct (assoc_get p parts) as [b|].
    + rewrite IH, <- app_assoc. split.
      * intros (Hnd & Hin & ->).
        assert (Hn : ~ In p r) by (intros H; apply Hin, assoc_del_keys in H; tauto).
        rewrite get_nil_del_map by assumption. repeat split; [constructor; assumption|].
        intros q [<-|Hq]; [apply Hp; discriminate|apply Hin, assoc_del_keys in Hq; tauto].
      * intros (Hnd & Hin & ->). inversion Hnd as [|? ? Hn Hnd']; subst.
        rewrite get_nil_del_map by assumption. repeat split; auto.
        intros q Hq. apply assoc_del_keys. split; [auto|]. intros ->. contradiction.
    + split; [discriminate|]. intros (_ & Hin & _). exfalso. apply Hp; auto.
Qed.

Definition finalised (f : fs) (ps : list Z) : fs :=
  mkFS (Some (concat (map (get_nil (f_parts f)) ps))) false [].

(** the first part is renamed, the others appended: one loop over the whole list *)
Lemma sink_finalise_eq f ps :
  ps <> [] ->
  sink_finalise false false f ps =
  match append_parts false false ps [] (f_parts f) with
  | Err e => Err e
  | Ok (acc, parts') =>
      if f_dir f && is_nil parts' then Ok (mkFS (Some acc) false []) else Err EIO
  end.
Proof.
  destruct ps as [|p1 rest]; [congruence|]. intros _. simpl.
  destruct (assoc_get p1 (f_parts f)); reflexivity.
Qed.

(** [finalise] succeeds exactly when the directory exists and holds the listed parts, each
    listed once, and nothing else; the destination is then their concatenation in the order
    given, and nothing of the parts directory is left *)
Theorem sink_finalise_iff f ps f' :
  sink_finalise false false f ps = Ok f' <->
  ps <> [] /\ NoDup ps /\ f_dir f = true /\
  (forall p, In p ps <-> In p (map fst (f_parts f))) /\ f' = finalised f ps.
Proof.
  destruct (list_eq_dec Z.eq_dec ps []) as [->|Hne]; [split; [discriminate|tauto]|].
  rewrite (sink_finalise_eq f ps Hne). split.
  - destruct (append_parts false false ps [] (f_parts f)) as [[acc parts']|e] eqn:Ea; [|discriminate].
    apply append_parts_iff in Ea. destruct Ea as (Hnd & Hin & [= -> ->]).
    destruct (f_dir f); [|discriminate].
    destruct (del_all ps (f_parts f)) eqn:Ed; [|discriminate].
    intros [= <-]. repeat split; auto. apply del_all_nil, Ed.
  - intros (_ & Hnd & Hd & Hk & ->).
    assert (Ea : append_parts false false ps [] (f_parts f)
                 = Ok (concat (map (get_nil (f_parts f)) ps), del_all ps (f_parts f)))
      by (apply append_parts_iff; repeat split; auto; apply Hk).
    rewrite Ea, Hd, (proj2 (del_all_nil ps (f_parts f))); [reflexivity|apply Hk].
Qed.

(** a part that is listed but has no file, or a file that is not listed, makes
    [finalise] fail (FileNotFoundError / directory not empty) *)
Lemma sink_finalise_err f ps :
  ~ (forall p, In p ps <-> In p (map fst (f_parts f))) ->
  exists e, sink_finalise false false f ps = Err e.
Proof.
  intros Hn. destruct (sink_finalise false false f ps) as [f'|e] eqn:E; [|eauto].
  apply sink_finalise_iff in E. tauto.
Qed.

Lemma sink_writes_app ws w :
  sink_writes (ws ++ [w]) = sink_write (sink_writes ws) (fst w) (snd w).
Proof. unfold sink_writes. rewrite fold_left_app. reflexivity. Qed.

Lemma sink_writes_get ws p :
  assoc_get p (f_parts (sink_writes ws)) = assoc_get p (rev ws).
Proof.
  induction ws as [|w ws IH] using rev_ind; [reflexivity|].
  destruct w as [k v].
  rewrite sink_writes_app, rev_app_distr. unfold sink_write. cbn [f_parts fst snd].
  rewrite assoc_get_set, IH. reflexivity.
Qed.

Lemma sink_writes_keys ws p :
  In p (map fst (f_parts (sink_writes ws))) <-> In p (map fst ws).
Proof.
  rewrite <- assoc_get_in, sink_writes_get, assoc_get_in, map_rev, <- in_rev. tauto.
Qed.

Lemma sink_writes_dir ws : ws <> [] -> f_dir (sink_writes ws) = true.
Proof.
  destruct ws as [|w ws] using rev_ind; [congruence|]. intros _.
  rewrite sink_writes_app. reflexivity.
Qed.

Lemma sink_writes_finalised ws ps :
  finalised (sink_writes ws) ps = mkFS (Some (concat (map (last_write ws) ps))) false [].
Proof.
  unfold finalised. f_equal. f_equal. f_equal. apply map_ext. intros p.
  unfold get_nil, last_write. rewrite sink_writes_get. reflexivity.
Qed.

Lemma lkey_eqb_spec a b : reflect (a = b) (lkey_eqb a b).
Proof.
  destruct a, b; simpl; try (constructor; congruence).
  destruct (Z.eqb_spec n n0); constructor; congruence.
Qed.

(** [v] is what the caller configured for key [k], [d] being the documented default *)
Definition configured (l : limits) (k : lkey) (d v : Z) : Prop :=
  In (k, v) l \/ (~ In k (map fst l) /\ v = d).

Lemma lim_get_in l k d v : NoDup (map fst l) -> In (k, v) l -> lim_get k l d = v.
Proof.
  induction l as [|[k' v'] r IH]; simpl; intros Hnd Hin; [contradiction|].
  inversion Hnd as [|? ? Hnot Hnd']; subst.
  destruct (lkey_eqb_spec k' k) as [->|Hne]; destruct Hin as [E|Hin]; try congruence; auto.
  exfalso. apply Hnot, (in_map fst _ _ Hin).
Qed.

Lemma lim_get_default l k d : ~ In k (map fst l) -> lim_get k l d = d.
Proof.
  induction l as [|[k' v'] r IH]; simpl; intros Hn; [reflexivity|].
  destruct (lkey_eqb_spec k' k) as [->|Hne]; [tauto|auto].
Qed.

Lemma lim_get_configured l k d v :
  NoDup (map fst l) -> configured l k d v -> lim_get k l d = v.
Proof. intros Hnd [Hin|(Hn & ->)]; [apply lim_get_in|apply lim_get_default]; assumption. Qed.
