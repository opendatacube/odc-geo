(** The float helpers of odc/geo/math.py as Model/MathH.v has them: [Qtrunc],
    [fmod1], [split_float], [maybe_int_z] / [maybe_int], [is_almost_int].
    Everything after [split_float_char] rests on it: the whole part is an integer
    [z] (the code's [x_whole]) and the fraction is [x - z], in [-1/2, 1/2].  Hence
    the whole part is a nearest integer, and [maybe_int x tol] finds an integer
    within [tol] of [x] exactly when there is one.

    Model/GridOps.v, Model/OutGeobox.v and Model/Overlap.v have their own copies
    of these helpers; GridOpsProofs, OutGeoboxProofs and OverlapProofs identify
    the copies with the ones of MathH and take the facts from here. *)
From Coq Require Import ZArith QArith Qround Qabs Lqa.
From OG Require Import Base.QZ Base.QMinMax Model.MathH.
Open Scope Q_scope.

Lemma Qltb_true x y : Qltb x y = true <-> x < y.
Proof. exact (Qlt_bool_true x y). Qed.

Lemma Qltb_false x y : Qltb x y = false <-> y <= x.
Proof. exact (Qlt_bool_false x y). Qed.

Lemma Qltb_spec x y : BoolSpec (x < y) (y <= x) (Qltb x y).
Proof. exact (Qlt_bool_spec x y). Qed.

Global Instance Qltb_comp : Proper (Qeq ==> Qeq ==> eq) Qltb.
Proof. exact Qlt_bool_comp. Qed.

Lemma Qtrunc_spec x :
  exists t, t = inject_Z (Qtrunc x) /\
            ((0 <= x /\ t <= x /\ x < t + 1) \/ (x < 0 /\ t - 1 < x /\ x <= t)).
Proof.
  unfold Qtrunc. destruct (Qle_bool_spec 0 x) as [E|E].
  - destruct (Qfloor_spec x) as (f & Ef & H1 & H2). exists f. split; [exact Ef|]. left. auto.
  - destruct (Qceiling_spec x) as (c & Ec & H1 & H2). exists c. split; [exact Ec|]. right. auto.
Qed.

Global Instance Qtrunc_comp : Proper (Qeq ==> eq) Qtrunc.
Proof. intros x y H. unfold Qtrunc. rewrite H at 1. destruct (Qle_bool 0 y); rewrite H; reflexivity. Qed.

Lemma Qtrunc_Z z : Qtrunc (inject_Z z) = z.
Proof.
  unfold Qtrunc. destruct (Qle_bool 0 (inject_Z z)); [apply Qfloor_Z | apply Qceiling_Z].
Qed.

Lemma fmod1_spec x :
  exists t, t = inject_Z (Qtrunc x) /\ fmod1 x == x - t /\ -(1) < x - t /\ x - t < 1.
Proof.
  destruct (Qtrunc_spec x) as (t & Et & H). exists t. split; [exact Et|]. split.
  - unfold fmod1. rewrite <- Et. reflexivity.
  - destruct H as [(H0 & H1 & H2)|(H0 & H1 & H2)]; split; lra.
Qed.

Global Instance fmod1_comp : Proper (Qeq ==> Qeq) fmod1.
Proof. intros x y H. unfold fmod1. rewrite (Qtrunc_comp _ _ H), H. reflexivity. Qed.

Lemma split_float_char x :
  exists z : Z,
    fst (split_float x) == inject_Z z /\
    snd (split_float x) == x - inject_Z z /\
    -(1#2) <= x - inject_Z z /\ x - inject_Z z <= 1#2.
Proof.
  destruct (fmod1_spec x) as (t & Et & Ep & B1 & B2). unfold split_float.
  destruct (Qltb_spec (1#2) (fmod1 x)) as [E1|E1]; [|destruct (Qltb_spec (fmod1 x) (-(1#2))) as [E2|E2]];
    cbn [fst snd]; rewrite Ep in *.
  - exists (Qtrunc x + 1)%Z. rewrite inject_Z_plus, inj1, <- Et. repeat split; lra.
  - exists (Qtrunc x - 1)%Z. rewrite inject_Z_sub, inj1, <- Et. repeat split; lra.
  - exists (Qtrunc x). rewrite <- Et. repeat split; lra.
Qed.

Lemma split_float_spec x :
  let '(w, p) := split_float x in
  w + p == x /\ -(1#2) <= p /\ p <= 1#2 /\ exists z : Z, w == inject_Z z.
Proof.
  destruct (split_float_char x) as (z & Hw & Hp & H1 & H2).
  destruct (split_float x) as [w p]. simpl in *.
  repeat split; try (rewrite ?Hw, ?Hp; lra). exists z. exact Hw.
Qed.

Lemma split_float_nearest x (k : Z) :
  Qabs (snd (split_float x)) <= Qabs (x - inject_Z k).
Proof.
  destruct (split_float_char x) as (z & Hw & Hp & H1 & H2).
  rewrite Hp.
  destruct (Z.eq_dec z k) as [->|N]; [apply Qle_refl|].
  destruct (inject_Z_apart z k N) as [A|A];
    destruct (Qabs_cases (x - inject_Z z)) as [(?&->)|(?&->)];
    destruct (Qabs_cases (x - inject_Z k)) as [(?&->)|(?&->)]; lra.
Qed.

Lemma split_float_comp x y : x == y ->
  fst (split_float x) == fst (split_float y) /\ snd (split_float x) == snd (split_float y).
Proof.
  intros H. pose proof (fmod1_comp x y H) as F. unfold split_float.
  rewrite (Qltb_comp _ _ (Qeq_refl _) _ _ F), (Qltb_comp _ _ F _ _ (Qeq_refl _)).
  destruct (Qltb (1#2) (fmod1 y)); [|destruct (Qltb (fmod1 y) (-(1#2)))];
    simpl; rewrite F, H; split; reflexivity.
Qed.

Lemma maybe_int_z_some x tol n :
  maybe_int_z x tol = Some n ->
  Qabs (x - inject_Z n) < tol /\ -(1#2) <= x - inject_Z n /\ x - inject_Z n <= 1#2.
Proof.
  unfold maybe_int_z. destruct (split_float_char x) as (z & Hw & Hp & H1 & H2).
  destruct (split_float x) as [w p]. cbn [fst snd] in *.
  destruct (Qltb_spec (Qabs p) tol) as [E|E]; [|discriminate].
  intros H. injection H as <-.
  rewrite Hw, Qtrunc_Z. rewrite Hp in E. auto.
Qed.

Lemma maybe_int_z_none x tol :
  maybe_int_z x tol = None -> forall k : Z, tol <= Qabs (x - inject_Z k).
Proof.
  unfold maybe_int_z. intros H k. pose proof (split_float_nearest x k) as N.
  destruct (split_float x) as [w p]. simpl in *.
  destruct (Qltb_spec (Qabs p) tol); [discriminate | lra].
Qed.

Lemma maybe_int_z_complete x tol (k : Z) :
  Qabs (x - inject_Z k) < tol -> exists n, maybe_int_z x tol = Some n.
Proof.
  intros H. destruct (maybe_int_z x tol) eqn:E; [eauto|].
  pose proof (maybe_int_z_none x tol E k). lra.
Qed.

Lemma maybe_int_z_of_Z (n : Z) tol : 0 < tol -> maybe_int_z (inject_Z n) tol = Some n.
Proof.
  intros Ht. destruct (maybe_int_z_complete (inject_Z n) tol n) as (m & Hm).
  - setoid_replace (inject_Z n - inject_Z n) with 0 by ring. simpl. exact Ht.
  - rewrite Hm. f_equal. apply maybe_int_z_some in Hm. destruct Hm as (_ & H1 & H2).
    symmetry. apply inject_Z_close; lra.
Qed.

Global Instance maybe_int_z_comp : Proper (Qeq ==> Qeq ==> eq) maybe_int_z.
Proof.
  intros x y H tol tol' Ht. destruct (split_float_comp x y H) as [Hw Hp]. unfold maybe_int_z.
  destruct (split_float x) as [w p], (split_float y) as [w' p']. simpl in Hw, Hp.
  rewrite Hp, Ht, Hw. reflexivity.
Qed.

Global Instance maybe_int_comp : Proper (Qeq ==> Qeq ==> Qeq) maybe_int.
Proof.
  intros x y H tol tol' Ht. unfold maybe_int. rewrite H, Ht at 1.
  destruct (maybe_int_z y tol'); [reflexivity | exact H].
Qed.

Lemma maybe_int_cases x tol :
  (exists n : Z, maybe_int_z x tol = Some n /\ maybe_int x tol = inject_Z n /\ Qabs (x - inject_Z n) < tol /\ -(1#2) <= x - inject_Z n /\ x - inject_Z n <= 1#2) \/
  (maybe_int_z x tol = None /\ maybe_int x tol = x /\ forall k : Z, tol <= Qabs (x - inject_Z k)).
Proof.
  unfold maybe_int. destruct (maybe_int_z x tol) as [n|] eqn:E.
  - left. exists n. pose proof (maybe_int_z_some x tol n E). tauto.
  - right. pose proof (maybe_int_z_none x tol E). auto.
Qed.

Lemma maybe_int_of_Z (n : Z) tol : maybe_int (inject_Z n) tol == inject_Z n.
Proof.
  destruct (maybe_int_cases (inject_Z n) tol) as [(m & _ & -> & _ & H1 & H2)|(_ & -> & _)]; [|reflexivity].
  rewrite (inject_Z_close n m); [reflexivity | lra..].
Qed.

(** is_almost_int folds [f = fmod1 x] in (-1, 1) to [min |f| (1 - |f|)]; that is [|p|] for the
    fractional part [p] of split_float, which folds [f] to [f - 1], [f + 1] or [f] *)
Lemma is_almost_int_eq x tol :
  is_almost_int x tol = Qltb (Qabs (snd (split_float x))) tol.
Proof.
  destruct (fmod1_spec x) as (t & _ & Ep & Hr).
  assert (B : -(1) < fmod1 x < 1) by (rewrite Ep; exact Hr).
  unfold is_almost_int, split_float. cbv zeta. set (f := fmod1 x) in *.
  apply Qltb_comp; [|reflexivity].
  destruct (Qltb_spec (1#2) f) as [A|A]; [|destruct (Qltb_spec f (-(1#2))) as [A'|A']]; cbn [snd].
  - rewrite (Qabs_neg (f - 1)) by lra.
    destruct (Qabs_cases f) as [(?&E)|(?&E)]; [|lra]. destruct (Qltb_spec (1#2) (Qabs f)); lra.
  - rewrite (Qabs_pos (f + 1)) by lra.
    destruct (Qabs_cases f) as [(?&E)|(?&E)]; [lra|]. destruct (Qltb_spec (1#2) (Qabs f)); lra.
  - destruct (Qltb_spec (1#2) (Qabs f)) as [G|G]; [|reflexivity].
    destruct (Qabs_cases f) as [(?&E)|(?&E)]; lra.
Qed.

Lemma is_almost_int_maybe_int x tol :
  is_almost_int x tol = true <-> exists n, maybe_int_z x tol = Some n.
Proof.
  rewrite is_almost_int_eq. unfold maybe_int_z. destruct (split_float x) as [w p]. cbn [snd].
  destruct (Qltb (Qabs p) tol); split; [eauto | reflexivity | discriminate | intros (n & H); discriminate].
Qed.

Lemma is_almost_int_within x tol :
  is_almost_int x tol = true <-> exists k : Z, Qabs (x - inject_Z k) < tol.
Proof.
  rewrite is_almost_int_maybe_int. split.
  - intros (n & H). exists n. apply maybe_int_z_some in H. tauto.
  - intros (k & H). eapply maybe_int_z_complete; eauto.
Qed.
