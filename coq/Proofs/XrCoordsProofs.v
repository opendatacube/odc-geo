(** Lemmas for property C09 (xarray geo-registration).  The recovery is followed from one
    axis ([axis_fit]) to two ([grid_fit]) to an array carrying label coordinates over index
    lists ([georef], kept by every history) and then specialised to the three classes of
    GeoBox; the reprojection outputs are shown to carry such coordinates. *)
From Coq Require Import ZArith QArith Qfield List Bool String Lia.
From OG Require Import Base.Result Model.XrCoords.
From OG Require Base.ZRange.
Import ListNotations.
Open Scope string_scope.
Open Scope Z_scope.
Open Scope list_scope.

Lemma Ok_inj {A} (a b : A) : Ok a = Ok b -> a = b.
Proof. intros [= ->]; reflexivity. Qed.

Lemma zlen_nonneg {A} (l : list A) : 0 <= zlen l.
Proof. unfold zlen; lia. Qed.

Lemma zlen_map {A B} (f : A -> B) l : zlen (map f l) = zlen l.
Proof. unfold zlen; now rewrite map_length. Qed.

Lemma zlen_iota n : zlen (iota n) = Z.max 0 n.
Proof. unfold zlen, iota; rewrite map_length, seq_length; lia. Qed.

Lemma iota_nonpos n : n <= 0 -> iota n = [].
Proof. intros H; unfold iota; replace (Z.to_nat n) with 0%nat by lia; reflexivity. Qed.

Lemma nth_error_iota_None n i : (Z.to_nat n <= i)%nat -> nth_error (iota n) i = None.
Proof. intros H; apply nth_error_None; unfold iota; rewrite map_length, seq_length; lia. Qed.

Lemma iota_cons n : 1 <= n -> iota n = 0 :: map Z.succ (iota (n - 1)).
Proof.
  intros H; unfold iota.
  replace (Z.to_nat n) with (S (Z.to_nat (n - 1))) by lia.
  simpl. f_equal. rewrite <- seq_shift, !map_map. apply map_ext; intros; lia.
Qed.

Lemma map_iota_two {A} (g : Z -> A) m : 2 <= m ->
  exists mid, map g (iota m) = g 0 :: mid ++ [g (m - 1)].
Proof.
  intros H. rewrite (iota_cons m) by lia.
  replace (iota (m - 1)) with (iota (m - 2) ++ [m - 2]) by (change iota with ZRange.iota; rewrite <- ZRange.iota_succ by lia; f_equal; lia).
  exists (map g (map Z.succ (iota (m - 2)))). simpl. f_equal.
  rewrite !map_app. simpl. do 3 f_equal. lia.
Qed.

Lemma map_iota_one {A} (g : Z -> A) : map g (iota 1) = [g 0].
Proof. reflexivity. Qed.

Lemma eqb_neq a b : a <> b -> String.eqb a b = false.
Proof. apply String.eqb_neq. Qed.

Lemma lookup_aset {V} k k' (v : V) l :
  lookup k' (aset k v l) = if String.eqb k' k then Some v else lookup k' l.
Proof.
  induction l as [|(k2, v2) l IH]; simpl; [reflexivity|].
  destruct (String.eqb k k2) eqn:E; simpl.
  - apply String.eqb_eq in E; subst k2. destruct (String.eqb k' k); reflexivity.
  - rewrite IH. destruct (String.eqb k' k2) eqn:E2; [|reflexivity].
    apply String.eqb_eq in E2; subst k2. now rewrite String.eqb_sym, E.
Qed.

Lemma lookup_app {V} k (a b : list (string * V)) :
  lookup k (a ++ b) = match lookup k a with Some v => Some v | None => lookup k b end.
Proof. induction a as [|(ka, va) a IH]; simpl; auto. destruct (String.eqb k ka); auto. Qed.

Lemma lookup_aupdate {V} (l upd : list (string * V)) k :
  lookup k (aupdate l upd) = match lookup k (rev upd) with Some v => Some v | None => lookup k l end.
Proof.
  unfold aupdate. revert l; induction upd as [|(k1, v1) upd IH]; intros l; simpl; auto.
  rewrite IH, lookup_app, lookup_aset; simpl.
  destruct (lookup k (rev upd)); auto. destruct (String.eqb k k1); auto.
Qed.

Lemma lookup_filter_key {V} (p : string -> bool) (l : list (string * V)) k :
  lookup k (filter (fun kv => p (fst kv)) l) = if p k then lookup k l else None.
Proof.
  induction l as [|(k', v) l IH]; simpl; [destruct (p k); auto|].
  destruct (p k') eqn:P; simpl; rewrite ?IH;
    (destruct (String.eqb k k') eqn:E; auto; apply String.eqb_eq in E; subst; now rewrite P).
Qed.

Lemma lookup_adel {V} k k' (l : list (string * V)) :
  lookup k' (adel k l) = if String.eqb k' k then None else lookup k' l.
Proof.
  unfold adel. rewrite (lookup_filter_key (fun s => negb (String.eqb s k))).
  destruct (String.eqb k' k); reflexivity.
Qed.

Lemma lookup_map_val {V W} (f : V -> W) (l : list (string * V)) k :
  lookup k (map (fun nc => (fst nc, f (snd nc))) l) = option_map f (lookup k l).
Proof. induction l as [|(k', v) l IH]; simpl; auto. destruct (String.eqb k k'); auto. Qed.

Lemma smem_In k l : smem k l = true <-> In k l.
Proof.
  unfold smem; rewrite existsb_exists; split.
  - intros (x & Hx & E); apply String.eqb_eq in E; now subst.
  - intros H; exists k; split; auto; apply String.eqb_refl.
Qed.

Lemma smem_false k l : ~ In k l -> smem k l = false.
Proof. intros H. destruct (smem k l) eqn:E; auto. apply smem_In in E; contradiction. Qed.

Lemma smem_app k a b : smem k (a ++ b) = smem k a || smem k b.
Proof. apply existsb_app. Qed.

Lemma prune_spatial_spec (a : attrs) k :
  lookup k (prune_spatial a) = if smem k SPATIAL_ATTRIBUTES then None else lookup k a.
Proof.
  unfold prune_spatial.
  rewrite (lookup_filter_key (fun s => negb (smem s SPATIAL_ATTRIBUTES))).
  destruct (smem k SPATIAL_ATTRIBUTES); reflexivity.
Qed.

Lemma prune_spatial_removed (a : attrs) k : In k SPATIAL_ATTRIBUTES -> lookup k (prune_spatial a) = None.
Proof. intros H; rewrite prune_spatial_spec. apply smem_In in H. now rewrite H. Qed.

Lemma prune_spatial_kept (a : attrs) k : ~ In k SPATIAL_ATTRIBUTES -> lookup k (prune_spatial a) = lookup k a.
Proof. intros H; now rewrite prune_spatial_spec, smem_false. Qed.

Lemma aff_mul_centre t T x y X Y :
  fst (aff_apply T x y) == X -> snd (aff_apply T x y) == Y ->
  fst (aff_apply (aff_mul t T) x y) == fst (aff_apply t X Y) /\
  snd (aff_apply (aff_mul t T) x y) == snd (aff_apply t X Y).
Proof.
  destruct t, T; unfold aff_apply, aff_mul; simpl. intros Q1 Q2. rewrite <- Q1, <- Q2. split; ring.
Qed.

Lemma aff_eq_refl m : aff_eq m m.
Proof. unfold aff_eq; repeat split; reflexivity. Qed.

Lemma aff_eqb_eq m n : aff_eqb m n = true <-> aff_eq m n.
Proof.
  unfold aff_eqb, aff_eq. rewrite !andb_true_iff, !Qeq_bool_iff. tauto.
Qed.

Lemma range_pos a b st k : 0 < st -> 0 <= k < (b - a - 1) / st + 1 -> a <= a + k * st < b.
Proof.
  intros Hs Hk.
  pose proof (Z.mul_div_le (b - a - 1) st Hs).
  assert (k * st <= (b - a - 1) / st * st) by (apply Z.mul_le_mono_nonneg_r; lia).
  nia.
Qed.

Lemma range_neg a b st k : st < 0 -> 0 <= k < (a - b - 1) / (- st) + 1 -> b < a + k * st <= a.
Proof.
  intros Hs Hk. pose proof (range_pos (- a) (- b) (- st) k) as H.
  replace (- b - - a - 1) with (a - b - 1) in H by lia. lia.
Qed.

Lemma div_plus1_nonneg a st : 0 <= a -> 0 < st -> 0 <= a / st + 1.
Proof. intros; pose proof (Z.div_pos a st); lia. Qed.

Lemma slice_clamp_bounds n lo hi v : lo <= 0 -> n - 1 <= hi -> lo <= hi -> lo <= slice_clamp n lo hi v <= hi.
Proof. intros; unfold slice_clamp; destruct (Z.ltb_spec v 0); lia. Qed.

Lemma slice_len_spec start stop step : step <> 0 ->
  0 <= slice_len start stop step /\
  forall k, 0 <= k < slice_len start stop step ->
    if step <? 0 then stop < start + k * step <= start else start <= start + k * step < stop.
Proof.
  intros Hs. unfold slice_len.
  destruct (Z.ltb_spec step 0) as [Hneg|Hpos].
  - destruct (Z.ltb_spec stop start) as [Hba|Hba].
    + split; [apply div_plus1_nonneg; lia|]. intros k Hk. apply range_neg; auto.
    + split; [lia|]. intros; lia.
  - assert (0 < step) by lia.
    destruct (Z.ltb_spec start stop) as [Hab|Hab].
    + split; [apply div_plus1_nonneg; lia|]. intros k Hk. apply range_pos; auto.
    + split; [lia|]. intros; lia.
Qed.

Lemma slice_adjust_spec n s start step m :
  0 <= n -> slice_adjust n s = Ok (start, step, m) ->
  step <> 0 /\ 0 <= m /\ forall k, 0 <= k < m -> 0 <= start + k * step < n.
Proof.
  intros Hn. unfold slice_adjust. cbv zeta.
  set (st := match s_step s with Some v => v | None => 1 end).
  destruct (Z.eqb_spec st 0) as [|Hst]; [discriminate|].
  set (lo := if st <? 0 then -1 else 0). set (hi := if st <? 0 then n - 1 else n).
  assert (Hlh : lo <= 0 /\ n - 1 <= hi /\ lo <= hi) by (subst lo hi; destruct (st <? 0); lia).
  (* start and stop are clamped to [lo, hi]; the range runs from start towards stop without reaching it *)
  set (a := match s_start s with Some v => slice_clamp n lo hi v | None => if st <? 0 then hi else lo end).
  set (b := match s_stop s with Some v => slice_clamp n lo hi v | None => if st <? 0 then lo else hi end).
  assert (Ha : lo <= a <= hi).
  { subst a. destruct (s_start s); [apply slice_clamp_bounds; lia | destruct (st <? 0); lia]. }
  assert (Hb : lo <= b <= hi).
  { subst b. destruct (s_stop s); [apply slice_clamp_bounds; lia | destruct (st <? 0); lia]. }
  intros E; injection E as <- <- <-.
  destruct (slice_len_spec a b st Hst) as (H0 & Hr).
  split; [exact Hst|]. split; [exact H0|]. intros k Hk. specialize (Hr k Hk).
  subst lo hi. destruct (Z.ltb_spec st 0); lia.
Qed.

Lemma slice_idx_spec n s idx : 0 <= n -> slice_idx n s = Ok idx ->
  (exists start step m, 0 <= m /\ idx = ap start step m) /\ forall i, In i idx -> 0 <= i < n.
Proof.
  intros Hn. unfold slice_idx.
  destruct (slice_adjust n s) as [[[start step] m]|e] eqn:E; simpl; [|discriminate].
  intros [= <-]. destruct (slice_adjust_spec n s start step m Hn E) as (_ & Hm & Hr). split.
  - exists start, step, m. split; [exact Hm|]. unfold ap. apply map_ext; intros; lia.
  - intros i Hi. apply in_map_iff in Hi. destruct Hi as (k & <- & Hk). apply ZRange.In_iota in Hk. apply Hr; auto.
Qed.

Lemma pick_map {A B} (g : A -> B) l idx : pick (map g l) idx = map g (pick l idx).
Proof.
  unfold pick. induction idx as [|i idx IH]; simpl; auto.
  rewrite map_app, IH. f_equal.
  destruct (i <? 0); auto. rewrite nth_error_map. destruct (nth_error l (Z.to_nat i)); reflexivity.
Qed.

Lemma pick_iota_in_range n idx : (forall i, In i idx -> 0 <= i < n) -> pick (iota n) idx = idx.
Proof.
  unfold pick. induction idx as [|i idx IH]; intros H; simpl; auto.
  assert (Hi : 0 <= i < n) by (apply H; now left).
  destruct (Z.ltb_spec i 0); [lia|].
  rewrite ZRange.nth_error_iota by lia. simpl. rewrite Z2Nat.id by lia. f_equal. apply IH; intros; apply H; now right.
Qed.

Lemma pick_incl {A} (l : list A) idx x : In x (pick l idx) -> In x l.
Proof.
  unfold pick. rewrite in_flat_map. intros (i & _ & Hx).
  destruct (i <? 0); [contradiction|].
  destruct (nth_error l (Z.to_nat i)) eqn:E; [|contradiction].
  destruct Hx as [<-|[]]. eapply nth_error_In; eauto.
Qed.

Lemma zlen_pick {A} (l : list A) idx : (forall i, In i idx -> 0 <= i < zlen l) -> zlen (pick l idx) = zlen idx.
Proof.
  unfold zlen. intros H. f_equal. unfold pick.
  induction idx as [|i idx IH]; simpl; auto.
  rewrite app_length.
  assert (Hi : 0 <= i < Z.of_nat (List.length l)) by (apply H; now left).
  destruct (Z.ltb_spec i 0); [lia|].
  destruct (nth_error l (Z.to_nat i)) eqn:E.
  - simpl. f_equal. apply IH. intros; apply H; now right.
  - apply nth_error_None in E. lia.
Qed.

Lemma iota_ap n : iota n = ap 0 1 n.
Proof. unfold ap. rewrite <- (map_id (iota n)) at 1. apply map_ext; intros; lia. Qed.

Lemma zlen_ap p q m : 0 <= m -> zlen (ap p q m) = m.
Proof. intros; unfold ap; rewrite zlen_map, zlen_iota; lia. Qed.

Lemma nth_ap p q m k : 0 <= k < m -> nth (Z.to_nat k) (ap p q m) 0 = p + q * k.
Proof.
  intros H. apply nth_error_nth. unfold ap.
  rewrite nth_error_map, ZRange.nth_error_iota by lia. simpl. now rewrite Z2Nat.id by lia.
Qed.

Lemma pick_ap p q m start step m' :
  (forall i, In i (ap start step m') -> 0 <= i < m) ->
  pick (ap p q m) (ap start step m') = ap (p + q * start) (q * step) m'.
Proof.
  intros Hr. unfold ap at 1. rewrite pick_map, pick_iota_in_range by exact Hr.
  unfold ap. rewrite !map_map. apply map_ext; intros; lia.
Qed.

Lemma axis_idx_ap d h : forall idx idx',
  is_ap idx -> axis_idx d idx h = Ok idx' -> is_ap idx' /\ incl idx' idx.
Proof.
  induction h as [|o h IH]; intros idx idx' Hap; simpl.
  - intros E; injection E as <-. split; auto. apply incl_refl.
  - destruct o as [d' s | dims' gm' attrs'].
    + destruct (String.eqb d' d); [|apply IH; auto].
      destruct (slice_idx (zlen idx) s) as [sidx|e] eqn:E; simpl; [|discriminate].
      intros H.
      destruct Hap as (p & q & m & Hm & ->).
      destruct (slice_idx_spec _ s sidx (zlen_nonneg _) E) as ((start & step & m' & Hm' & ->) & Hr).
      rewrite zlen_ap in Hr by exact Hm.
      destruct (IH (pick (ap p q m) (ap start step m')) idx') as (H1 & H2); auto.
      * rewrite pick_ap by exact Hr. exists (p + q * start), (q * step), m'; auto.
      * split; auto. intros x Hx. apply H2 in Hx. eapply pick_incl; eauto.
    + apply IH; auto.
Qed.

Lemma ap_of_history d n h idx : 0 <= n -> axis_idx d (iota n) h = Ok idx ->
  exists p q m, 0 <= m /\ idx = ap p q m /\ forall k, 0 <= k < m -> 0 <= p + q * k < n.
Proof.
  intros Hn E.
  destruct (axis_idx_ap d h (iota n) idx) as ((p & q & m & Hm & ->) & Hincl); auto.
  { exists 0, 1, n. split; [exact Hn | apply iota_ap]. }
  exists p, q, m. split; [auto|]. split; [auto|]. intros k Hk.
  apply ZRange.In_iota, Hincl. unfold ap; apply in_map_iff; exists k; split; auto; apply ZRange.In_iota; auto.
Qed.

Lemma dro_cons x0 mid z fb :
  data_resolution_and_offset (x0 :: mid ++ [z]) fb =
  Ok (((z - x0) / inject_Z (zlen (x0 :: mid ++ [z]) - 1))%Q,
      (x0 - (1 # 2) * ((z - x0) / inject_Z (zlen (x0 :: mid ++ [z]) - 1)))%Q).
Proof.
  unfold data_resolution_and_offset.
  destruct mid as [|a mid]; cbn [app]; lazy beta iota.
  - reflexivity.
  - rewrite (app_comm_cons mid [z] a), last_last. reflexivity.
Qed.

Lemma dro_empty fb : data_resolution_and_offset [] fb = Err EValue.
Proof. reflexivity. Qed.

(** An axis of a regular grid: the label of index [i] is the centre [i*r + (t + r/2)]. *)
Record axis := Axis {
  a_lab : Z -> Q; a_off : Q; a_res : Q;
  a_reg : forall i, a_lab i == inject_Z i * a_res + (a_off + a_res / 2)
}.

(** What [data_resolution_and_offset] makes of the labels of the indices [p + q*k], [k < m], on
    axis [a]: the offset lies half a step before the first label; the step is [r*q] when there
    are two labels or more, and the fallback [u] when there is one. *)
Definition axis_fit (a : axis) (p q m : Z) (u res off : Q) : Prop :=
  off == a_lab a p - res / 2 /\ (2 <= m -> res == a_res a * inject_Z q) /\ (m = 1 -> res == u).

Lemma axis_fit_eq {a p q m u res off res' off'} :
  axis_fit a p q m u res off -> res' == res -> off' == off -> axis_fit a p q m u res' off'.
Proof. unfold axis_fit. intros H E1 E2. now rewrite E1, E2. Qed.

Section Axis.
  Variable f : Z -> Q.

  Lemma dro_one p fb res :
    fb = Some res ->
    data_resolution_and_offset [f p] fb = Ok (res, (f p - (1 # 2) * res)%Q).
  Proof. intros ->; reflexivity. Qed.

  Lemma dro_one_none p : data_resolution_and_offset [f p] None = Err EValue.
  Proof. reflexivity. Qed.
End Axis.

Lemma dro_ap a p q m fb u : 1 <= m -> (2 <= m \/ fb = Some u) ->
  exists res off,
    data_resolution_and_offset (map (a_lab a) (ap p q m)) fb = Ok (res, off) /\ axis_fit a p q m u res off.
Proof.
  intros Hm Hfb. unfold ap. rewrite map_map.
  destruct (Z_le_gt_dec 2 m) as [H2|H1].
  - destruct (map_iota_two (fun k => a_lab a (p + q * k)) m H2) as (mid & E). cbv beta in E.
    replace (p + q * 0) with p in E by lia.
    assert (Hlen : zlen (map (fun k => a_lab a (p + q * k)) (iota m)) = m).
    { rewrite zlen_map, zlen_iota; lia. }
    rewrite E in *. rewrite dro_cons, Hlen.
    eexists _, _; split; [reflexivity|].
    assert (Hm1 : ~ inject_Z (m - 1) == 0) by (unfold Qeq, inject_Z; simpl; lia).
    split; [field; exact Hm1|]. split; [intros _|lia].
    rewrite !a_reg, inject_Z_plus, inject_Z_mult. field; exact Hm1.
  - assert (m = 1) by lia. subst m. destruct Hfb as [H | ->]; [lia|].
    change (iota 1) with [0]. cbn [map]. replace (p + q * 0) with p by lia.
    eexists _, _; split; [apply dro_one; reflexivity|].
    split; [field|]. split; [lia | reflexivity].
Qed.

Lemma axis_fit_centre {a p q m u res off} : axis_fit a p q m u res off ->
  forall k, 0 <= k < m -> off + res * (inject_Z k + (1 # 2)) == a_lab a (p + q * k).
Proof.
  intros (Ho & Hr & _) k Hk. rewrite Ho, !a_reg, inject_Z_plus, inject_Z_mult.
  destruct (Z.eq_dec k 0) as [->|Hk0].
  - change (inject_Z 0) with 0%Q. field.
  - rewrite Hr by lia. field.
Qed.

Lemma axis_fit_full {a n res off} :
  axis_fit a 0 1 n (a_res a) res off -> 1 <= n -> res == a_res a /\ off == a_off a.
Proof.
  intros (Ho & Hr & Hu) Hn.
  assert (R : res == a_res a).
  { destruct (Z_le_gt_dec 2 n); [rewrite Hr by lia; change (inject_Z 1) with 1%Q; ring | apply Hu; lia]. }
  split; [exact R|]. rewrite Ho, R, a_reg. change (inject_Z 0) with 0%Q. field.
Qed.

Lemma label_spec t r i : label t r i == inject_Z i * r + (t + r / 2).
Proof. reflexivity. Qed.

Lemma pix_label_spec i : pix_label i == inject_Z i * 1 + (0 + 1 / 2).
Proof. unfold pix_label. field. Qed.

Definition label_axis (t r : Q) : axis := Axis (label t r) t r (label_spec t r).
Definition pix_axis : axis := Axis pix_label 0 1 pix_label_spec.

(** [T] is what [affine_from_axis] makes of labels following the progressions [px + qx*k],
    [k < mx], and [py + qy*j], [j < my], with fallback resolution [(ux, uy)] *)
Definition grid_fit (X Y : axis) (px qx mx py qy my : Z) (ux uy : Q) (T : aff) : Prop :=
  fb T == 0 /\ fd T == 0 /\
  axis_fit X px qx mx ux (fa T) (fc T) /\ axis_fit Y py qy my uy (fe T) (ff T).

Lemma affine_from_axis_ap X Y px qx mx py qy my fbk ux uy :
  1 <= mx -> 1 <= my -> ((2 <= mx /\ 2 <= my) \/ fbk = Some (ux, uy)) ->
  exists T,
    affine_from_axis (map (a_lab X) (ap px qx mx)) (map (a_lab Y) (ap py qy my)) fbk = Ok T /\
    grid_fit X Y px qx mx py qy my ux uy T.
Proof.
  intros Hmx Hmy Hfb.
  destruct (dro_ap X px qx mx (option_map fst fbk) ux Hmx) as (xres & xoff & Ex & Fx).
  { destruct Hfb as [[? ?]| ->]; [left | right]; auto. }
  destruct (dro_ap Y py qy my (option_map snd fbk) uy Hmy) as (yres & yoff & Ey & Fy).
  { destruct Hfb as [[? ?]| ->]; [left | right]; auto. }
  unfold affine_from_axis. rewrite Ex, Ey. simpl.
  eexists; split; [reflexivity|].
  split; [simpl; ring|]. split; [simpl; ring|].
  split; [apply (axis_fit_eq Fx) | apply (axis_fit_eq Fy)]; simpl; ring.
Qed.

Lemma grid_fit_centre {X Y px qx mx py qy my ux uy T} :
  grid_fit X Y px qx mx py qy my ux uy T ->
  forall j k, 0 <= j < my -> 0 <= k < mx ->
    fst (aff_apply T (inject_Z k + (1 # 2)) (inject_Z j + (1 # 2))) == a_lab X (px + qx * k) /\
    snd (aff_apply T (inject_Z k + (1 # 2)) (inject_Z j + (1 # 2))) == a_lab Y (py + qy * j).
Proof.
  intros (B & D & Fx & Fy) j k Hj Hk. unfold aff_apply; simpl.
  rewrite <- (axis_fit_centre Fx k Hk), <- (axis_fit_centre Fy j Hj), B, D.
  split; ring.
Qed.

Lemma grid_fit_full {X Y nx ny T} :
  grid_fit X Y 0 1 nx 0 1 ny (a_res X) (a_res Y) T -> 1 <= nx -> 1 <= ny ->
  aff_eq T (Aff (a_res X) 0 (a_off X) 0 (a_res Y) (a_off Y)).
Proof.
  intros (B & D & Fx & Fy) Hnx Hny.
  destruct (axis_fit_full Fx Hnx) as (A & C).
  destruct (axis_fit_full Fy Hny) as (E & F).
  unfold aff_eq; simpl. auto 7.
Qed.

(** what the history theorems of Props/C09.v say of the recovered matrix, for index lists
    [ix], [iy] that are those progressions *)
Lemma grid_fit_tail {X Y px qx py qy ix iy ux uy T} :
  ix = ap px qx (zlen ix) -> iy = ap py qy (zlen iy) ->
  grid_fit X Y px qx (zlen ix) py qy (zlen iy) ux uy T ->
  fb T == 0 /\ fd T == 0 /\
  (forall j k, 0 <= j < zlen iy -> 0 <= k < zlen ix ->
     fst (aff_apply T (inject_Z k + (1 # 2)) (inject_Z j + (1 # 2))) == a_lab X (nth (Z.to_nat k) ix 0) /\
     snd (aff_apply T (inject_Z k + (1 # 2)) (inject_Z j + (1 # 2))) == a_lab Y (nth (Z.to_nat j) iy 0)) /\
  (2 <= zlen ix -> exists px qx, ix = ap px qx (zlen ix) /\ fa T == a_res X * inject_Z qx /\
                                 fc T == a_off X + a_res X * inject_Z px + a_res X / 2 - a_res X * inject_Z qx / 2) /\
  (2 <= zlen iy -> exists py qy, iy = ap py qy (zlen iy) /\ fe T == a_res Y * inject_Z qy /\
                                 ff T == a_off Y + a_res Y * inject_Z py + a_res Y / 2 - a_res Y * inject_Z qy / 2) /\
  (zlen ix = 1 -> fa T == ux) /\ (zlen iy = 1 -> fe T == uy).
Proof.
  intros Ex Ey F. pose proof (grid_fit_centre F) as C.
  destruct F as (B & D & (Ox & Rx & Ux) & (Oy & Ry & Uy)).
  split; [exact B|]. split; [exact D|].
  split. { intros j k Hj Hk. rewrite Ex, Ey, !nth_ap by assumption. apply C; assumption. }
  split. { intros H. exists px, qx. split; [exact Ex|]. split; [exact (Rx H)|]. rewrite Ox, (Rx H), a_reg. field. }
  split. { intros H. exists py, qy. split; [exact Ey|]. split; [exact (Ry H)|]. rewrite Oy, (Ry H), a_reg. field. }
  split; assumption.
Qed.

(** [grid_fit_tail] at [pix_axis] (offset 0, resolution 1), the factors 1 and summands 0
    simplified away as the theorems of Props/C09.v state them *)
Lemma pix_fit_tail {px qx py qy ix iy T} :
  ix = ap px qx (zlen ix) -> iy = ap py qy (zlen iy) ->
  grid_fit pix_axis pix_axis px qx (zlen ix) py qy (zlen iy) 1 1 T ->
  fb T == 0 /\ fd T == 0 /\
  (forall j k, 0 <= j < zlen iy -> 0 <= k < zlen ix ->
     fst (aff_apply T (inject_Z k + (1 # 2)) (inject_Z j + (1 # 2))) == pix_label (nth (Z.to_nat k) ix 0) /\
     snd (aff_apply T (inject_Z k + (1 # 2)) (inject_Z j + (1 # 2))) == pix_label (nth (Z.to_nat j) iy 0)) /\
  (2 <= zlen ix -> exists px qx, ix = ap px qx (zlen ix) /\ fa T == inject_Z qx /\
                                 fc T == inject_Z px + (1 # 2) - inject_Z qx / 2) /\
  (2 <= zlen iy -> exists py qy, iy = ap py qy (zlen iy) /\ fe T == inject_Z qy /\
                                 ff T == inject_Z py + (1 # 2) - inject_Z qy / 2) /\
  (zlen ix = 1 -> fa T == 1) /\ (zlen iy = 1 -> fe T == 1).
Proof.
  intros Ex Ey F.
  destruct (grid_fit_tail Ex Ey F) as (B & D & C & X2 & Y2 & X1 & Y1). cbn [pix_axis a_off a_res] in X2, Y2.
  split; [exact B|]. split; [exact D|]. split; [exact C|].
  split. { intros H. destruct (X2 H) as (p & q & E & R1 & R2). exists p, q. split; [exact E|]. split; [rewrite R1; ring | rewrite R2; field]. }
  split. { intros H. destruct (Y2 H) as (p & q & E & R1 & R2). exists p, q. split; [exact E|]. split; [rewrite R1; ring | rewrite R2; field]. }
  split; assumption.
Qed.

Definition compose_tr (P : option aff) (T : aff) : aff :=
  match P with Some p => aff_mul p T | None => T end.
Definition is_some {A} (o : option A) : bool := match o with Some _ => true | None => false end.

(** the fallback resolution computed in the body of [extract_transform], for any setting of the switches *)
Definition fallback_of (fx : fixes) (tol : Q) (crs_coord : option coord) (gcp : bool) (P : option aff)
  : res (option (Q * Q)) :=
  if (fx_pix_unit fx && is_some P) || (fx_gcp_unit fx && gcp)
  then Ok (Some (1, 1)%Q)
  else match crs_coord with
       | None => Ok None
       | Some cc =>
           match extract_geo_transform cc with
           | None => Ok None
           | Some orig => r <- resolution_from_affine tol orig ;; Ok (Some r)
           end
       end.

Lemma afa_short xs ys : zlen xs < 2 \/ zlen ys < 2 -> exists e, affine_from_axis xs ys None = Err e.
Proof.
  intros H. unfold affine_from_axis; simpl.
  destruct (data_resolution_and_offset xs None) as [[xr xo]|e] eqn:Ex; simpl; [|eauto].
  destruct H as [H|H].
  - destruct xs as [|x [|x' xs]]; try discriminate Ex. unfold zlen in H; simpl in H; lia.
  - destruct ys as [|y [|y' ys]]; simpl; eauto. unfold zlen in H; simpl in H; lia.
Qed.

Lemma extract_transform_eq fx tol cs yd xd (cy cx : coord) crs_coord (gcp : bool) :
  lookup yd cs = Some cy -> lookup xd cs = Some cx ->
  let P := if gcp then None else co_tr cx in
  let fit := affine_from_axis (co_vals cx) (co_vals cy) in
  extract_transform fx tol cs (yd, xd) crs_coord gcp =
  match fit None with
  | Ok T => Ok (Some (compose_tr P T))
  | Err _ =>
      fbk <- fallback_of fx tol crs_coord gcp P ;;
      match fbk with
      | Some r => match fit (Some r) with Ok T => Ok (Some (compose_tr P T)) | Err _ => Ok None end
      | None => Ok None
      end
  end.
Proof.
  intros Hy Hx P fit. unfold extract_transform, fallback_of, is_some; simpl. rewrite Hy, Hx. fold P fit.
  destruct (fit None) as [T|e]; simpl; [destruct P; reflexivity|].
  destruct ((fx_pix_unit fx && match P with Some _ => true | None => false end) || (fx_gcp_unit fx && gcp)); simpl.
  - destruct (fit (Some (1, 1)%Q)); simpl; destruct P; reflexivity.
  - destruct crs_coord as [cc|]; [|reflexivity]. destruct (extract_geo_transform cc) as [orig|]; [|reflexivity].
    destruct (resolution_from_affine tol orig) as [r|]; simpl; [|reflexivity].
    destruct (fit (Some r)); simpl; destruct P; reflexivity.
Qed.

Lemma locate_compute fx tol x sd ny nx :
  spatial_dims (map fst (x_dims x)) = Some sd ->
  lookup (fst sd) (x_dims x) = Some ny -> lookup (snd sd) (x_dims x) = Some nx ->
  locate_geo_info fx tol x =
    (let cc := locate_crs_coords (x_gm x) (x_attrs x) (x_coords x) in
     let '(crs_coord, c, gcp) :=
       match cc with
       | (_, c0) :: _ => (Some c0, extract_crs c0, extract_gcps c0)
       | [] => (None, get_crs_from_attrs x sd, None)
       end in
     transform <- extract_transform fx tol (x_coords x) sd crs_coord (is_some gcp) ;;
     Ok (GeoState (Some sd) c transform
                  (match gcp with
                   | Some pts => Some (AGcp ny nx (match transform with Some t => t | None => aff_id end) pts c)
                   | None => match transform with Some t => Some (ABox (GBox ny nx t c)) | None => None end
                   end))).
Proof.
  intros H1 H2 H3. unfold locate_geo_info. rewrite H1, H2, H3. reflexivity.
Qed.

Lemma lookup_dims_resize (dims : list (string * Z)) d m k :
  lookup k (map (fun dn => if String.eqb (fst dn) d then (fst dn, m) else dn) dims) =
  if String.eqb k d then option_map (fun _ => m) (lookup k dims) else lookup k dims.
Proof.
  induction dims as [|(k', v) dims IH]; simpl; [destruct (String.eqb k d); reflexivity|].
  destruct (String.eqb k' d) eqn:E1; simpl;
    (destruct (String.eqb k k') eqn:E2; [apply String.eqb_eq in E2; subst; now rewrite E1 | exact IH]).
Qed.

Lemma map_fst_resize (dims : list (string * Z)) d m :
  map fst (map (fun dn => if String.eqb (fst dn) d then (fst dn, m) else dn) dims) = map fst dims.
Proof.
  rewrite map_map. apply map_ext. intros (k, v); simpl. destruct (String.eqb k d); reflexivity.
Qed.

Lemma filter_map_val {V} (p : V -> bool) (g : V -> V) (l : list (string * V)) :
  (forall v, p (g v) = p v) ->
  filter (fun nc => p (snd nc)) (map (fun nc => (fst nc, g (snd nc))) l) =
  map (fun nc => (fst nc, g (snd nc))) (filter (fun nc => p (snd nc)) l).
Proof.
  intros H. induction l as [|(k, v) l IH]; simpl; auto.
  rewrite H. destruct (p v); simpl; rewrite IH; reflexivity.
Qed.

Definition sel1 (dim : string) (idx : list Z) (c : coord) : coord :=
  if smem dim (co_dims c)
  then Coord (co_dims c) (match co_dims c with [_] => pick (co_vals c) idx | _ => co_vals c end)
             (co_attrs c) (co_tr c)
  else c.

Lemma isel_inv x dim s x' :
  isel x dim s = Ok x' ->
  exists n idx, lookup dim (x_dims x) = Some n /\ slice_idx n s = Ok idx /\
    x' = XObj (x_is_ds x)
              (map (fun dn => if String.eqb (fst dn) dim then (fst dn, zlen idx) else dn) (x_dims x))
              (x_gm x) (x_attrs x)
              (map (fun nc => (fst nc, sel1 dim idx (snd nc))) (x_coords x)) (x_vars x).
Proof.
  unfold isel. destruct (lookup dim (x_dims x)) as [n|]; [|discriminate].
  destruct (slice_idx n s) as [idx|] eqn:Es; simpl; [|discriminate]. intros [= <-]. exists n, idx. auto.
Qed.

Lemma is_spatial_ref_sel1 dim idx c : is_spatial_ref (sel1 dim idx c) = is_spatial_ref c.
Proof. unfold sel1. destruct (smem dim (co_dims c)); reflexivity. Qed.

Lemma sel1_scalar dim idx c : co_dims c = [] -> sel1 dim idx c = c.
Proof. intros H; unfold sel1; rewrite H; reflexivity. Qed.

Lemma sel1_other dim idx d vals a tr : String.eqb dim d = false -> sel1 dim idx (Coord [d] vals a tr) = Coord [d] vals a tr.
Proof. intros N; unfold sel1; simpl. now rewrite N. Qed.

Lemma sel1_same dim idx vals a tr : sel1 dim idx (Coord [dim] vals a tr) = Coord [dim] (pick vals idx) a tr.
Proof. unfold sel1; simpl. rewrite String.eqb_refl. reflexivity. Qed.

Definition axis_ref (d : string) (f : Z -> Q) (a : attrs) (tr : option aff) (il : list Z) (x : xobj) : Prop :=
  lookup d (x_dims x) = Some (zlen il) /\ lookup d (x_coords x) = Some (Coord [d] (map f il) a tr).

Lemma axis_ref_isel d f a tr il x dim s x' :
  axis_ref d f a tr il x -> isel x dim s = Ok x' ->
  exists il', axis_idx d il [OIsel dim s] = Ok il' /\ axis_ref d f a tr il' x'.
Proof.
  intros (Hn & Hc) E. destruct (isel_inv _ _ _ _ E) as (n & idx & Ed & Es & ->).
  unfold axis_ref; simpl. rewrite lookup_dims_resize, lookup_map_val, Hn, Hc, (String.eqb_sym d dim). simpl.
  destruct (String.eqb dim d) eqn:Ey.
  - apply String.eqb_eq in Ey; subst dim. rewrite Hn in Ed; injection Ed as <-. rewrite Es; simpl.
    eexists; split; [reflexivity|]. rewrite sel1_same, pick_map. split; [|reflexivity].
    f_equal. symmetry. apply zlen_pick, (slice_idx_spec _ s idx (zlen_nonneg _) Es).
  - eexists; split; [reflexivity|]. rewrite sel1_other by exact Ey. auto.
Qed.

Lemma axis_idx_cons d idx o h : axis_idx d idx (o :: h) = (idx' <- axis_idx d idx [o] ;; axis_idx d idx' h).
Proof.
  destruct o as [d' s|]; simpl; [|reflexivity].
  destruct (String.eqb d' d); [|reflexivity]. destruct (slice_idx (zlen idx) s); reflexivity.
Qed.

Lemma lookup_In {V} k (v : V) l : lookup k l = Some v -> In (k, v) l.
Proof.
  induction l as [|(k', v') l IH]; simpl; [discriminate|].
  destruct (String.eqb k k') eqn:E.
  - apply String.eqb_eq in E; subst. intros H; injection H as ->. now left.
  - intros H; right; auto.
Qed.

Lemma amap_eqb_Z_lookup (a b : list (string * Z)) k v :
  amap_eqb Z.eqb a b = true -> lookup k a = Some v -> lookup k b = Some v.
Proof.
  unfold amap_eqb. rewrite andb_true_iff, !forallb_forall. intros (H1 & _) L.
  specialize (H1 (k, v) (lookup_In _ _ _ L)). simpl in H1.
  destruct (lookup k b) as [v'|]; simpl in H1; [|discriminate].
  apply Z.eqb_eq in H1. congruence.
Qed.

Lemma kept_or_dropped_none k a a' : kept_or_dropped k a a' = true -> lookup k a = None -> lookup k a' = None.
Proof.
  unfold kept_or_dropped. destruct (lookup k a') as [v'|]; auto.
  intros H E; rewrite E in H; discriminate.
Qed.

Lemma sd_eqb_eq a b : sd_eqb a b = true -> a = b.
Proof.
  destruct a, b; unfold sd_eqb; simpl. rewrite andb_true_iff, !String.eqb_eq. intros (-> & ->); reflexivity.
Qed.

Section Georef.
  Variables (yd xd : string) (fyl fxl : Z -> Q) (ay ax : attrs) (Py P : option aff).

  (** the two label coordinates over the current index lists and no CRS attribute on the
      array itself: all that the recovery reads apart from the CRS coordinate *)
  Record geoaxes (iy ix : list Z) (x : xobj) : Prop := {
    ga_da : x_is_ds x = false;
    ga_sd : spatial_dims (map fst (x_dims x)) = Some (yd, xd);
    ga_y : axis_ref yd fyl ay Py iy x;
    ga_x : axis_ref xd fxl ax P ix x;
    ga_at : lookup "crs" (x_attrs x) = None /\ lookup "crs_wkt" (x_attrs x) = None
  }.

  (** What the recovery relies on in an array that was produced by [wrap_xr] and
      then sliced / passed through element-wise operations: the label coordinates,
      the CRS coordinate if any, no grid_mapping attribute on the array itself. *)
  Record georef (gm0 : option string) (ccn : option (string * coord)) (iy ix : list Z) (x : xobj) : Prop := {
    gr_axes : geoaxes iy ix x;
    gr_gm : x_gm x = None \/ x_gm x = gm0;
    gr_gmat : lookup "grid_mapping" (x_attrs x) = None;
    gr_ref : filter (fun nc => is_spatial_ref (snd nc)) (x_coords x) =
             match ccn with Some p => [p] | None => [] end;
    gr_cc : match gm0 with Some n => lookup n (x_coords x) = option_map snd ccn | None => True end;
    gr_ccd : match ccn with Some p => co_dims (snd p) = [] | None => True end
  }.

  (** what the recovery itself needs (weaker than [georef], which is the part that
      histories preserve): used for arrays taken out of a reprojected Dataset *)
  Definition georef_w (ccn : option (string * coord)) (iy ix : list Z) (x : xobj) : Prop :=
    geoaxes iy ix x /\
    exists nm, locate_crs_coords (x_gm x) (x_attrs x) (x_coords x) =
               match ccn with Some p => [(nm, snd p)] | None => [] end.

  Lemma georef_weaken gm0 ccn iy ix x : georef gm0 ccn iy ix x -> georef_w ccn iy ix x.
  Proof.
    intros [A Ggm Ggmat Gref Gcc Gccd]. split; [exact A|].
    unfold locate_crs_coords, grid_mapping_of.
    destruct (x_gm x) as [n|].
    - destruct Ggm as [|<-]; [discriminate|]. rewrite Gcc. exists n. destruct ccn as [[n' c]|]; reflexivity.
    - rewrite Ggmat, Gref. destruct ccn as [[n c]|]; [exists n | exists ""]; reflexivity.
  Qed.

  Lemma georef_isel gm0 ccn iy ix x d s x' :
    georef gm0 ccn iy ix x -> isel x d s = Ok x' ->
    exists iy' ix',
      axis_idx yd iy [OIsel d s] = Ok iy' /\ axis_idx xd ix [OIsel d s] = Ok ix' /\
      georef gm0 ccn iy' ix' x'.
  Proof.
    intros [[Gda Gsd Gy Gx Gat] Ggm Ggmat Gref Gcc Gccd] E.
    destruct (axis_ref_isel _ _ _ _ _ _ _ _ _ Gy E) as (iy' & Ey & Gy').
    destruct (axis_ref_isel _ _ _ _ _ _ _ _ _ Gx E) as (ix' & Ex & Gx').
    exists iy', ix'. split; [exact Ey|]. split; [exact Ex|].
    (* the coordinate selection [sel1] leaves a scalar CRS coordinate as it is *)
    destruct (isel_inv _ _ _ _ E) as (n & idx & _ & _ & ->).
    constructor; [constructor|..]; simpl; auto.
    - rewrite map_fst_resize. exact Gsd.
    - rewrite (filter_map_val is_spatial_ref (sel1 d idx)), Gref by (apply is_spatial_ref_sel1).
      destruct ccn as [[n1 c]|]; simpl; auto. simpl in Gccd. rewrite sel1_scalar by auto. reflexivity.
    - destruct gm0 as [n0|]; auto. rewrite lookup_map_val, Gcc.
      destruct ccn as [[n' c]|]; simpl; auto. simpl in Gccd. rewrite sel1_scalar by auto. reflexivity.
  Qed.

  Lemma georef_elem gm0 ccn iy ix x dims' gm' attrs' x' :
    georef gm0 ccn iy ix x -> elem_step x dims' gm' attrs' = Ok x' -> georef gm0 ccn iy ix x'.
  Proof.
    intros [[Gda Gsd (Gny & Gcy) (Gnx & Gcx) (A2 & A3)] Ggm Ggmat Gref Gcc Gccd]. unfold elem_step.
    destruct (_ && _) eqn:C; [|discriminate]. rewrite !andb_true_iff in C.
    destruct C as (((((C1 & C2) & C3) & C4) & C5) & C6).
    intros E; injection E as <-.
    constructor; [constructor|..]; simpl; auto.
    - rewrite Gsd in C2.
      destruct (spatial_dims (map fst dims')) as [sd|]; simpl in C2; [|discriminate].
      apply sd_eqb_eq in C2. congruence.
    - split; [eapply amap_eqb_Z_lookup; eauto | exact Gcy].
    - split; [eapply amap_eqb_Z_lookup; eauto | exact Gcx].
    - split; eapply kept_or_dropped_none; eauto.
    - destruct gm' as [s|]; [|left; reflexivity].
      destruct (x_gm x) as [s0|]; simpl in C3; [|discriminate].
      apply String.eqb_eq in C3; subst s0.
      destruct Ggm as [E|E]; [discriminate | right; exact E].
    - eapply kept_or_dropped_none; eauto.
  Qed.

  Lemma georef_history gm0 ccn h : forall iy ix x x',
    georef gm0 ccn iy ix x -> run_history x h = Ok x' ->
    exists iy' ix', axis_idx yd iy h = Ok iy' /\ axis_idx xd ix h = Ok ix' /\ georef gm0 ccn iy' ix' x'.
  Proof.
    induction h as [|o h IH]; intros iy ix x x' G.
    - intros E; injection E as <-. exists iy, ix; auto.
    - rewrite (axis_idx_cons yd iy o h), (axis_idx_cons xd ix o h). destruct o as [d s | dims' gm' attrs']; simpl run_history.
      + destruct (isel x d s) as [x1|e] eqn:E1; cbn [bind]; [|discriminate].
        destruct (georef_isel _ _ _ _ _ _ _ _ G E1) as (iy1 & ix1 & -> & -> & G1). apply IH. exact G1.
      + destruct (elem_step x dims' gm' attrs') as [x1|e] eqn:E1; cbn [bind]; [|discriminate].
        apply IH. eapply georef_elem; eauto.
  Qed.

  Lemma geoaxes_crs_from_attrs iy ix x :
    geoaxes iy ix x -> get_crs_from_attrs x (yd, xd) = hd_error (attr_crs_candidates ay ++ attr_crs_candidates ax).
  Proof.
    intros [Gda _ (_ & Gcy) (_ & Gcx) (A2 & A3)]. unfold get_crs_from_attrs. rewrite Gda.
    unfold attr_crs_candidates at 1. rewrite A2, A3. simpl.
    rewrite Gcy, Gcx. simpl. rewrite app_nil_r. reflexivity.
  Qed.

  Lemma georef_history_ap gm0 ccn ny nx h x0 x iy ix :
    0 <= ny -> 0 <= nx -> georef gm0 ccn (iota ny) (iota nx) x0 -> run_history x0 h = Ok x ->
    axis_idx yd (iota ny) h = Ok iy -> axis_idx xd (iota nx) h = Ok ix ->
    exists px qx py qy,
      ix = ap px qx (zlen ix) /\ iy = ap py qy (zlen iy) /\
      georef_w ccn (ap py qy (zlen iy)) (ap px qx (zlen ix)) x.
  Proof.
    intros Hny Hnx G0 Hh Hiy Hix.
    destruct (georef_history _ _ h _ _ _ _ G0 Hh) as (iy' & ix' & A1 & A2 & G).
    rewrite Hiy in A1; injection A1 as <-. rewrite Hix in A2; injection A2 as <-.
    destruct (ap_of_history yd ny h iy Hny Hiy) as (py & qy & my & Hmy & Ey & _).
    destruct (ap_of_history xd nx h ix Hnx Hix) as (px & qx & mx & Hmx & Ex & _).
    pose proof (f_equal zlen Ey) as Zy. pose proof (f_equal zlen Ex) as Zx.
    rewrite zlen_ap in Zy, Zx by assumption. subst my mx.
    exists px, qx, py, qy. split; [exact Ex|]. split; [exact Ey|].
    rewrite <- Ex, <- Ey. exact (georef_weaken _ _ _ _ _ G).
  Qed.

End Georef.
Arguments georef_history_ap {yd xd fyl fxl ay ax Py P gm0 ccn ny nx h x0 x iy ix} _ _ _ _ _ _.

Lemma extract_transform_ap yd xd X Y fx tol cs (cy cx : coord) crs_coord (gcp : bool) px qx mx py qy my ux uy :
  lookup yd cs = Some cy -> lookup xd cs = Some cx ->
  co_vals cx = map (a_lab X) (ap px qx mx) -> co_vals cy = map (a_lab Y) (ap py qy my) ->
  1 <= mx -> 1 <= my ->
  let P' := if gcp then None else co_tr cx in
  ((2 <= mx /\ 2 <= my) \/ fallback_of fx tol crs_coord gcp P' = Ok (Some (ux, uy))) ->
  exists T,
    extract_transform fx tol cs (yd, xd) crs_coord gcp = Ok (Some (compose_tr P' T)) /\
    grid_fit X Y px qx mx py qy my ux uy T.
Proof.
  intros Hy Hx Vx Vy Hmx Hmy P' Hfb.
  rewrite (extract_transform_eq fx tol cs yd xd cy cx crs_coord gcp Hy Hx). cbv zeta. fold P'.
  assert (D : (2 <= mx /\ 2 <= my) \/ (mx < 2 \/ my < 2)) by lia.
  destruct D as [D|D].
  - destruct (affine_from_axis_ap X Y px qx mx py qy my None ux uy Hmx Hmy) as (T & E & F); [left; exact D|].
    exists T. rewrite Vx, Vy, E. auto.
  - (* an axis with a single label: the first fit fails, the fallback resolution is used *)
    destruct Hfb as [Hfb|Hfb]; [lia|].
    destruct (afa_short (co_vals cx) (co_vals cy)) as (e & Ee).
    { rewrite Vx, Vy, !zlen_map, !zlen_ap by lia. exact D. }
    destruct (affine_from_axis_ap X Y px qx mx py qy my (Some (ux, uy)) ux uy Hmx Hmy) as (T & E & F); [right; reflexivity|].
    exists T. rewrite Ee, Hfb. simpl. rewrite Vx, Vy, E. auto.
Qed.

Lemma locate_georef_w {yd xd} Y X {ay ax Py P} fx tol {ccn px qx mx py qy my} ux uy {x} :
  georef_w yd xd (a_lab Y) (a_lab X) ay ax Py P ccn (ap py qy my) (ap px qx mx) x -> 1 <= mx -> 1 <= my ->
  let gcp := match ccn with Some p => extract_gcps (snd p) | None => None end in
  let P' := if is_some gcp then None else P in
  let c := match ccn with
           | Some p => extract_crs (snd p)
           | None => hd_error (attr_crs_candidates ay ++ attr_crs_candidates ax)
           end in
  ((2 <= mx /\ 2 <= my) \/
   fallback_of fx tol (option_map snd ccn) (is_some gcp) P' = Ok (Some (ux, uy))) ->
  exists T,
    locate_geo_info fx tol x =
      Ok (GeoState (Some (yd, xd)) c (Some (compose_tr P' T))
                   (match gcp with
                    | Some pts => Some (AGcp my mx (compose_tr P' T) pts c)
                    | None => Some (ABox (GBox my mx (compose_tr P' T) c))
                    end)) /\
    grid_fit X Y px qx mx py qy my ux uy T.
Proof.
  intros (A & nm & Hcc) Hmx Hmy gcp P' c Hfb.
  pose proof A as [_ Gsd (Gny & Gcy) (Gnx & Gcx) _]. rewrite zlen_ap in Gny, Gnx by lia.
  destruct (extract_transform_ap yd xd X Y fx tol (x_coords x) _ _ (option_map snd ccn) (is_some gcp)
              px qx mx py qy my ux uy Gcy Gcx eq_refl eq_refl Hmx Hmy Hfb) as (T & E & F).
  exists T. split; [|exact F].
  rewrite (locate_compute fx tol x (yd, xd) my mx Gsd Gny Gnx). cbv zeta.
  rewrite Hcc, (geoaxes_crs_from_attrs _ _ _ _ _ _ _ _ _ _ _ A).
  subst gcp c P'. destruct ccn as [[n cc]|]; simpl in *; rewrite E; simpl; [destruct (extract_gcps cc)|]; reflexivity.
Qed.

Lemma crs_dims_cases c : crs_dims c = ("y", "x") \/ crs_dims c = ("latitude", "longitude").
Proof. destruct c as [[i []]|]; simpl; auto. Qed.

Lemma aset_fresh {V} k (v : V) l : lookup k l = None -> aset k v l = l ++ [(k, v)].
Proof.
  induction l as [|(k', v') l IH]; simpl; auto.
  destruct (String.eqb k k'); [discriminate|]. intros H; rewrite IH; auto.
Qed.

Lemma aset_opt_fresh {V} k (v : V) (o : option Z) l :
  lookup k l = None ->
  match o with Some _ => aset k v l | None => l end = l ++ match o with Some _ => [(k, v)] | None => [] end.
Proof. intros H. destruct o; [apply aset_fresh; exact H | symmetry; apply app_nil_r]. Qed.

Definition wrap_attrs (nodata : option Q) (user : attrs) : attrs :=
  let at_ := match nodata with Some v => aset "nodata" (VNum v) user | None => user end in
  match nodata, lookup "nodata" user with Some _, Some u => aset "nodata" u at_ | _, _ => at_ end.

Lemma clean_wrap_attrs nodata user : clean_attrs user -> clean_attrs (wrap_attrs nodata user).
Proof.
  intros (A1 & A2 & A3). unfold wrap_attrs, clean_attrs.
  destruct nodata as [v|]; [|auto].
  destruct (lookup "nodata" user); rewrite ?lookup_aset; simpl; auto.
Qed.

Lemma wrap_xr_eq tol b nt nb nd name user cs :
  xr_coords tol b name = Ok cs ->
  wrap_xr tol b nt nb nd name user =
  Ok (XObj false
        (match nt with Some n => [("time", n)] | None => [] end
           ++ [(fst (crs_dims (box_crs b)), fst (box_shape b)); (snd (crs_dims (box_crs b)), snd (box_shape b))]
           ++ match nb with Some n => [("band", n)] | None => [] end)
        name (wrap_attrs nd user)
        (let cs := match nt with Some _ => aset "time" (Coord ["time"] [] [] None) cs | None => cs end in
         match nb with Some _ => aset "band" (Coord ["band"] [] [] None) cs | None => cs end) []).
Proof.
  intros H. unfold wrap_xr. rewrite H. simpl. destruct (crs_dims (box_crs b)), (box_shape b). reflexivity.
Qed.

Lemma wrap_georef {tol b nt nb nd name user x0 fyl fxl ay ax Py P ccn} :
  let yd := fst (crs_dims (box_crs b)) in
  let xd := snd (crs_dims (box_crs b)) in
  let ny := fst (box_shape b) in
  let nx := snd (box_shape b) in
  xr_coords tol b name =
    Ok ([(yd, Coord [yd] (map fyl (iota ny)) ay Py); (xd, Coord [xd] (map fxl (iota nx)) ax P)]
          ++ match ccn with Some p => [p] | None => [] end) ->
  wrap_xr tol b nt nb nd name user = Ok x0 ->
  name_ok name yd xd -> clean_attrs user -> 0 <= ny -> 0 <= nx ->
  match ccn with
  | Some p => name = Some (fst p) /\ co_dims (snd p) = [] /\ is_spatial_ref (snd p) = true
  | None => True
  end ->
  georef yd xd fyl fxl ay ax Py P name ccn (iota ny) (iota nx) x0.
Proof.
  intros yd xd ny nx Hcs Hw Hn Ha Hny Hnx Hc.
  rewrite (wrap_xr_eq _ _ _ _ _ _ _ _ Hcs) in Hw. apply Ok_inj in Hw. subst x0. cbv zeta. fold yd xd ny nx.
  set (cy := Coord [yd] (map fyl (iota ny)) ay Py). set (cx := Coord [xd] (map fxl (iota nx)) ax P).
  set (ccl := match ccn with Some p => [p] | None => [] end).
  set (ct := Coord ["time"] [] [] None). set (cb := Coord ["band"] [] [] None).
  assert (D : yd <> xd /\ yd <> "time" /\ yd <> "band" /\ xd <> "time" /\ xd <> "band").
  { subst yd xd. destruct (crs_dims_cases (box_crs b)) as [E|E]; rewrite E; repeat split; discriminate. }
  destruct D as (D1 & D2 & D3 & D4 & D5).
  (* all coordinate names are distinct, so "time" and "band" are appended *)
  assert (L : forall k, k <> yd -> k <> xd -> name <> Some k -> lookup k ([(yd, cy); (xd, cx)] ++ ccl) = None).
  { intros k K1 K2 K3. simpl. rewrite (eqb_neq k yd K1), (eqb_neq k xd K2).
    subst ccl. destruct ccn as [[n cc]|]; [|reflexivity]. destruct Hc as (Hc & _). simpl in *.
    rewrite (eqb_neq k n); [reflexivity | congruence]. }
  assert (N : name <> Some "time" /\ name <> Some "band").
  { destruct name as [n|]; [|split; discriminate]. destruct Hn as (_ & _ & N3 & N4). split; congruence. }
  rewrite (aset_opt_fresh "time") by (apply L; tauto || auto).
  rewrite (aset_opt_fresh "band") by (rewrite lookup_app, L by (tauto || auto); destruct nt; reflexivity).
  rewrite <- app_assoc.
  destruct (clean_wrap_attrs nd user Ha) as (A1 & A2 & A3).
  constructor; [constructor|..]; cbn [x_is_ds x_dims x_gm x_attrs x_coords]; auto.
  - subst yd xd. destruct (crs_dims_cases (box_crs b)) as [E|E]; rewrite E; destruct nt, nb; reflexivity.
  - split.
    + rewrite zlen_iota. destruct nt; simpl; rewrite ?(eqb_neq yd "time") by auto; rewrite String.eqb_refl; f_equal; lia.
    + simpl. rewrite String.eqb_refl. reflexivity.
  - split.
    + rewrite zlen_iota. destruct nt; simpl; rewrite ?(eqb_neq xd "time") by auto;
        rewrite (eqb_neq xd yd) by congruence; rewrite String.eqb_refl; f_equal; lia.
    + simpl. rewrite (eqb_neq xd yd) by congruence. rewrite String.eqb_refl. reflexivity.
  - subst ccl. simpl. destruct ccn as [[n cc]|]; simpl in *; [destruct Hc as (_ & _ & ->)|]; destruct nt, nb; reflexivity.
  - destruct name as [n|]; auto. destruct Hn as (N1 & N2 & N3 & N4).
    simpl. rewrite (eqb_neq n yd N1), (eqb_neq n xd N2). subst ccl.
    destruct ccn as [[n' cc]|]; simpl in *.
    + destruct Hc as (E & _ & _). injection E as <-. rewrite String.eqb_refl. reflexivity.
    + destruct nt, nb; simpl; rewrite ?(eqb_neq n "time"), ?(eqb_neq n "band") by auto; reflexivity.
  - destruct ccn as [[n cc]|]; simpl in *; tauto.
Qed.

Definition crs_coord_of (name : option string) (c : option crs) (gcps : option (list gcp)) (t : option aff)
  : option (string * coord) :=
  match name, c with
  | Some n, Some c => Some (n, mk_crs_coord c gcps t)
  | _, _ => None
  end.

Lemma crs_coord_of_ok name c gcps t :
  match crs_coord_of name c gcps t with
  | Some p => name = Some (fst p) /\ co_dims (snd p) = [] /\ is_spatial_ref (snd p) = true
  | None => True
  end.
Proof. destruct name, c; simpl; auto. Qed.

(** last step of [xr_coords]: a CRS coordinate under a fresh name is appended *)
Lemma xr_coords_finish name c gcps t yd xd (cy cx : coord) :
  name_ok name yd xd ->
  match name, c with
  | Some n, Some c => Ok (aset n (mk_crs_coord c gcps t) [(yd, cy); (xd, cx)])
  | _, _ => Ok [(yd, cy); (xd, cx)]
  end =
  Ok ([(yd, cy); (xd, cx)] ++ match crs_coord_of name c gcps t with Some p => [p] | None => [] end).
Proof.
  destruct name as [n|], c as [c|]; try reflexivity. intros (N1 & N2 & _).
  simpl. rewrite (eqb_neq _ _ N1), (eqb_neq _ _ N2). reflexivity.
Qed.

Lemma xr_coords_st tol g name :
  let t := g_aff g in
  let yd := fst (crs_dims (g_crs g)) in
  let xd := snd (crs_dims (g_crs g)) in
  is_affine_st tol t = true -> name_ok name yd xd ->
  xr_coords tol (ABox g) name =
  Ok ([(yd, Coord [yd] (map (label (ff t) (fe t)) (iota (g_ny g))) (st_attrs (fe t) (g_crs g)) None);
       (xd, Coord [xd] (map (label (fc t) (fa t)) (iota (g_nx g))) (st_attrs (fa t) (g_crs g)) None)]
        ++ match crs_coord_of name (g_crs g) None (Some t) with Some p => [p] | None => [] end).
Proof.
  intros t yd xd Hst Hn. unfold xr_coords. cbn [box_crs]. fold t. rewrite Hst.
  subst yd xd. destruct (crs_dims (g_crs g)). exact (xr_coords_finish _ _ _ _ _ _ _ _ Hn).
Qed.

Lemma xr_coords_rot tol g name :
  let t := g_aff g in
  let yd := fst (crs_dims (g_crs g)) in
  let xd := snd (crs_dims (g_crs g)) in
  is_affine_st tol t = false -> name_ok name yd xd ->
  xr_coords tol (ABox g) name =
  Ok ([(yd, Coord [yd] (map pix_label (iota (g_ny g))) [("units", VOther)] (Some t));
       (xd, Coord [xd] (map pix_label (iota (g_nx g))) [("units", VOther)] (Some t))]
        ++ match crs_coord_of name (g_crs g) None (Some t) with Some p => [p] | None => [] end).
Proof.
  intros t yd xd Hst Hn. unfold xr_coords. cbn [box_crs]. fold t. rewrite Hst.
  subst yd xd. destruct (crs_dims (g_crs g)). exact (xr_coords_finish _ _ _ _ _ _ _ _ Hn).
Qed.

Lemma xr_coords_gcp tol ny nx a pts c ai name :
  let yd := fst (crs_dims c) in
  let xd := snd (crs_dims c) in
  aff_inv a = Some ai -> name_ok name yd xd ->
  xr_coords tol (AGcp ny nx a pts c) name =
  Ok ([(yd, Coord [yd] (map pix_label (iota ny)) [("units", VOther)] None);
       (xd, Coord [xd] (map pix_label (iota nx)) [("units", VOther)] None)]
        ++ match crs_coord_of name c (Some (gcps_of ai pts)) None with Some p => [p] | None => [] end).
Proof.
  intros yd xd Hi Hn. unfold xr_coords. cbn [box_crs]. rewrite Hi.
  subst yd xd. destruct (crs_dims c). exact (xr_coords_finish _ _ _ _ _ _ _ _ Hn).
Qed.

Lemma name_ok_default c : name_ok (Some DEFAULT_CRS_COORD_NAME) (fst (crs_dims c)) (snd (crs_dims c)).
Proof. destruct (crs_dims_cases c) as [E|E]; rewrite E; repeat split; discriminate. Qed.

Lemma fallback_st tol t c :
  is_affine_st tol t = true ->
  fallback_of repaired tol (Some (mk_crs_coord c None (Some t))) false None = Ok (Some (fa t, fe t)).
Proof.
  intros Hst. unfold fallback_of. simpl. destruct t as [a b c0 d e f]. simpl.
  unfold resolution_from_affine. rewrite Hst. reflexivity.
Qed.

(** axis-aligned GeoBox: a single row/column needs the CRS coordinate, which carries the GeoTransform *)
Lemma locate_st tol t {crs name yd xd Py x px qx mx py qy my} :
  georef_w yd xd (label (ff t) (fe t)) (label (fc t) (fa t)) (st_attrs (fe t) crs) (st_attrs (fa t) crs)
           Py None (crs_coord_of name crs None (Some t)) (ap py qy my) (ap px qx mx) x ->
  is_affine_st tol t = true -> 1 <= my -> 1 <= mx ->
  ((2 <= my /\ 2 <= mx) \/ (name <> None /\ crs <> None)) ->
  exists T,
    locate_geo_info repaired tol x =
      Ok (GeoState (Some (yd, xd)) crs (Some T) (Some (ABox (GBox my mx T crs)))) /\
    grid_fit (label_axis (fc t) (fa t)) (label_axis (ff t) (fe t)) px qx mx py qy my (fa t) (fe t) T.
Proof.
  intros G Hst Hmy Hmx Hfb.
  destruct (locate_georef_w (label_axis _ _) (label_axis _ _) repaired tol (fa t) (fe t) G Hmx Hmy) as (T & E & F).
  { destruct Hfb as [[? ?]|[Hn Hc]]; [left; auto | right].
    destruct name as [n|], crs as [c|]; try congruence. apply fallback_st. exact Hst. }
  exists T. split; [|exact F]. rewrite E. destruct name, crs; reflexivity.
Qed.

Lemma locate_rot tol t {crs name yd xd Py x px qx mx py qy my} :
  georef_w yd xd pix_label pix_label [("units", VOther)] [("units", VOther)]
           Py (Some t) (crs_coord_of name crs None (Some t)) (ap py qy my) (ap px qx mx) x ->
  1 <= my -> 1 <= mx ->
  let c := match name with Some _ => crs | None => None end in
  exists T,
    locate_geo_info repaired tol x =
      Ok (GeoState (Some (yd, xd)) c (Some (aff_mul t T)) (Some (ABox (GBox my mx (aff_mul t T) c)))) /\
    grid_fit pix_axis pix_axis px qx mx py qy my 1 1 T.
Proof.
  intros G Hmy Hmx c.
  destruct (locate_georef_w pix_axis pix_axis repaired tol 1 1 G Hmx Hmy) as (T & E & F).
  { right. destruct name, crs; reflexivity. }
  exists T. split; [|exact F]. rewrite E. subst c. destruct name, crs; reflexivity.
Qed.

Lemma locate_gcp tol {crs n gcps yd xd Py P x px qx mx py qy my} :
  georef_w yd xd pix_label pix_label [("units", VOther)] [("units", VOther)]
           Py P (Some (n, mk_crs_coord crs (Some gcps) None)) (ap py qy my) (ap px qx mx) x ->
  1 <= my -> 1 <= mx ->
  exists T,
    locate_geo_info repaired tol x =
      Ok (GeoState (Some (yd, xd)) (Some crs) (Some T) (Some (AGcp my mx T gcps (Some crs)))) /\
    grid_fit pix_axis pix_axis px qx mx py qy my 1 1 T.
Proof.
  intros G Hmy Hmx.
  exact (locate_georef_w pix_axis pix_axis repaired tol 1 1 G Hmx Hmy (or_intror eq_refl)).
Qed.

Lemma aff_mul_near_id t T : aff_eq T aff_id -> aff_eq (aff_mul t T) t.
Proof.
  intros (A & B & C & D & E & F). unfold aff_eq, aff_mul; simpl in *. rewrite A, B, C, D, E, F. repeat split; ring.
Qed.

(** shear below the [is_affine_st] tolerance is not written to the labels, hence the recovered
    matrix is the wrapped one with b = d = 0 *)
Lemma locate_st_full tol t crs name yd xd Py x ny nx :
  georef_w yd xd (label (ff t) (fe t)) (label (fc t) (fa t)) (st_attrs (fe t) crs) (st_attrs (fa t) crs)
           Py None (crs_coord_of name crs None (Some t)) (iota ny) (iota nx) x ->
  is_affine_st tol t = true -> 1 <= ny -> 1 <= nx ->
  ((2 <= ny /\ 2 <= nx) \/ (name <> None /\ crs <> None)) ->
  exists T,
    locate_geo_info repaired tol x =
      Ok (GeoState (Some (yd, xd)) crs (Some T) (Some (ABox (GBox ny nx T crs)))) /\
    aff_eq T (Aff (fa t) 0 (fc t) 0 (fe t) (ff t)).
Proof.
  intros G Hst Hny Hnx Hfb. rewrite !iota_ap in G.
  destruct (locate_st tol t G Hst Hny Hnx Hfb) as (T & E & F).
  exists T. split; [exact E|]. exact (grid_fit_full F Hnx Hny).
Qed.

Lemma locate_rot_full tol t crs name yd xd Py x ny nx :
  georef_w yd xd pix_label pix_label [("units", VOther)] [("units", VOther)]
           Py (Some t) (crs_coord_of name crs None (Some t)) (iota ny) (iota nx) x ->
  1 <= ny -> 1 <= nx ->
  let c := match name with Some _ => crs | None => None end in
  exists T,
    locate_geo_info repaired tol x =
      Ok (GeoState (Some (yd, xd)) c (Some T) (Some (ABox (GBox ny nx T c)))) /\
    aff_eq T t.
Proof.
  intros G Hny Hnx c. rewrite !iota_ap in G.
  destruct (locate_rot tol t G Hny Hnx) as (T & E & F).
  exists (aff_mul t T). split; [exact E|]. apply aff_mul_near_id. exact (grid_fit_full F Hnx Hny).
Qed.

Lemma locate_gcp_full tol crs n gcps yd xd Py P x ny nx :
  georef_w yd xd pix_label pix_label [("units", VOther)] [("units", VOther)]
           Py P (Some (n, mk_crs_coord crs (Some gcps) None)) (iota ny) (iota nx) x ->
  1 <= ny -> 1 <= nx ->
  exists T,
    locate_geo_info repaired tol x =
      Ok (GeoState (Some (yd, xd)) (Some crs) (Some T) (Some (AGcp ny nx T gcps (Some crs)))) /\
    aff_eq T aff_id.
Proof.
  intros G Hny Hnx. rewrite !iota_ap in G.
  destruct (locate_gcp tol G Hny Hnx) as (T & E & F).
  exists T. split; [exact E|]. exact (grid_fit_full F Hnx Hny).
Qed.

Lemma filter_aset_nil {V} (p : V -> bool) k v (l : list (string * V)) :
  filter (fun nc => p (snd nc)) l = [] ->
  filter (fun nc => p (snd nc)) (aset k v l) = if p v then [(k, v)] else [].
Proof.
  induction l as [|(k', v') l IH]; simpl; intros H.
  - destruct (p v); reflexivity.
  - destruct (p v') eqn:E; [discriminate|].
    destruct (String.eqb k k'); simpl.
    + rewrite H. destruct (p v); reflexivity.
    + rewrite E. apply IH; exact H.
Qed.

Lemma filter_filter_nil {V} (p q : V -> bool) (l : list (string * V)) :
  (forall v, q v = true -> p v = false) ->
  filter (fun nc => p (snd nc)) (filter (fun nc => q (snd nc)) l) = [].
Proof.
  intros H. induction l as [|(k, v) l IH]; simpl; auto.
  destruct (q v) eqn:E; simpl; auto. rewrite (H v E). exact IH.
Qed.

Lemma lookup_notin {V} k (l : list (string * V)) : ~ In k (map fst l) -> lookup k l = None.
Proof.
  induction l as [|(k', v) l IH]; simpl; auto. intros H.
  destruct (String.eqb k k') eqn:E; [apply String.eqb_eq in E; subst; tauto | apply IH; tauto].
Qed.

Lemma index_of_skip k pre rest i :
  ~ In k pre -> index_of k (pre ++ rest) i = index_of k rest (i + zlen pre).
Proof.
  revert i. induction pre as [|h pre IH]; intros i H; simpl.
  - f_equal. unfold zlen; simpl. lia.
  - rewrite (eqb_neq k h), IH by (simpl in H; intuition congruence). f_equal. unfold zlen; simpl. lia.
Qed.

Section ReprojDims.
  Variables (syd sxd dy dx : string) (ny nx : Z).
  Let F := fun dn : string * Z =>
             if String.eqb (fst dn) syd then [(dy, ny)]
             else if String.eqb (fst dn) sxd then [(dx, nx)] else [dn].

  Lemma flat_map_other l : (forall dn, In dn l -> fst dn <> syd /\ fst dn <> sxd) -> flat_map F l = l.
  Proof.
    induction l as [|dn l IH]; intros H; simpl; auto.
    destruct (H dn (or_introl eq_refl)) as (N1 & N2).
    unfold F at 1. rewrite (eqb_neq _ _ N1), (eqb_neq _ _ N2). simpl. f_equal. apply IH; intros; apply H; now right.
  Qed.

  Lemma flat_map_dims pre n1 n2 post :
    syd <> sxd -> other_dims_ok (pre ++ post) syd sxd ->
    flat_map F (pre ++ [(syd, n1); (sxd, n2)] ++ post) = pre ++ [(dy, ny); (dx, nx)] ++ post.
  Proof.
    intros Hne Hok. rewrite !flat_map_app.
    rewrite (flat_map_other pre) by (intros dn Hd; apply Hok; apply in_or_app; now left).
    rewrite (flat_map_other post) by (intros dn Hd; apply Hok; apply in_or_app; now right).
    f_equal. simpl. unfold F; simpl. rewrite String.eqb_refl.
    rewrite (eqb_neq sxd syd) by congruence. rewrite String.eqb_refl. reflexivity.
  Qed.
End ReprojDims.

Lemma out_dims_facts pre post syd sxd (c : option crs) ny nx :
  other_dims_ok (pre ++ post) syd sxd ->
  let dy := fst (crs_dims c) in
  let dx := snd (crs_dims c) in
  let dims := pre ++ [(dy, ny); (dx, nx)] ++ post in
  spatial_dims (map fst dims) = Some (dy, dx) /\ lookup dy dims = Some ny /\ lookup dx dims = Some nx.
Proof.
  intros Hok dy dx dims.
  assert (N : forall k, In k guess_names -> ~ In k (map fst pre) /\ ~ In k (map fst post)).
  { intros k Hk; split; intros Hin; apply in_map_iff in Hin; destruct Hin as (dn & <- & Hd);
      (destruct (Hok dn) as (N & _); [apply in_or_app; auto | exact (N Hk)]). }
  assert (G : forall k, In k guess_names -> smem k (map fst dims) = smem k [dy; dx]).
  { intros k Hk. subst dims. rewrite !map_app, !smem_app.
    rewrite (smem_false k (map fst pre)), (smem_false k (map fst post)) by (apply N; exact Hk).
    simpl. now rewrite orb_false_r. }
  assert (Ldy : lookup dy dims = Some ny /\ lookup dx dims = Some nx).
  { subst dims. rewrite !lookup_app.
    assert (In dy guess_names /\ In dx guess_names /\ dx <> dy) as (I1 & I2 & I3).
    { subst dy dx. destruct (crs_dims_cases c) as [E|E]; rewrite E; simpl; repeat split; try tauto; discriminate. }
    rewrite (lookup_notin dy pre), (lookup_notin dx pre) by (apply N; assumption).
    simpl. rewrite String.eqb_refl. rewrite (eqb_neq dx dy I3). rewrite String.eqb_refl. auto. }
  split; [|exact Ldy].
  unfold spatial_dims, guesses. simpl find.
  rewrite !G by (simpl; tauto).
  subst dy dx. destruct (crs_dims_cases c) as [E|E]; rewrite E; reflexivity.
Qed.

Lemma out_attrs_lookup itol a nd k :
  k <> "nodata" -> k <> "_FillValue" -> lookup k (out_attrs itol a nd) = lookup k (prune_spatial a).
Proof.
  intros N1 N2. unfold out_attrs.
  destruct (match nd with Some v => Some v | None => nodata_of a end);
    rewrite ?lookup_aset, ?lookup_adel, (eqb_neq _ _ N1), ?(eqb_neq _ _ N2); reflexivity.
Qed.

Lemma out_attrs_spatial itol a nd k : In k SPATIAL_ATTRIBUTES -> lookup k (out_attrs itol a nd) = None.
Proof.
  intros H. rewrite out_attrs_lookup, prune_spatial_removed; auto;
    simpl in H; repeat (destruct H as [<-|H]; [discriminate|]); contradiction.
Qed.

Lemma out_attrs_other itol a nd k :
  ~ In k SPATIAL_ATTRIBUTES -> k <> "nodata" -> k <> "_FillValue" ->
  lookup k (out_attrs itol a nd) = lookup k a.
Proof. intros H N1 N2. rewrite out_attrs_lookup, prune_spatial_kept; auto. Qed.

Lemma out_attrs_nodata itol a nd v :
  nd = Some v \/ (nd = None /\ nodata_of a = Some v) ->
  lookup "nodata" (out_attrs itol a nd) = Some (VNum (maybe_int v itol)).
Proof.
  intros H. unfold out_attrs.
  destruct H as [->|(-> & ->)]; now rewrite lookup_aset.
Qed.

Lemma out_attrs_no_nodata itol a :
  nodata_of a = None ->
  lookup "nodata" (out_attrs itol a None) = None /\ lookup "_FillValue" (out_attrs itol a None) = None.
Proof.
  intros H. unfold out_attrs. rewrite H. rewrite !lookup_adel. simpl. auto.
Qed.

Lemma clean_out_attrs itol a nd : clean_attrs (out_attrs itol a nd).
Proof. unfold clean_attrs; repeat split; apply out_attrs_spatial; simpl; tauto. Qed.

Lemma reproject_da_unfold tol itol src dst nd st sb syd sxd pre n1 n2 post :
  locate_geo_info repaired tol src = Ok st -> gs_box st = Some sb -> box_crs sb <> None ->
  gs_sdims st = Some (syd, sxd) ->
  x_dims src = pre ++ [(syd, n1); (sxd, n2)] ++ post ->
  syd <> sxd -> other_dims_ok (pre ++ post) syd sxd ->
  let dy := fst (crs_dims (g_crs dst)) in
  let dx := snd (crs_dims (g_crs dst)) in
  reproject_da repaired tol itol src dst nd =
  (new <- xr_coords tol (ABox dst) (Some DEFAULT_CRS_COORD_NAME) ;;
   Ok (XObj false (pre ++ [(dy, g_ny dst); (dx, g_nx dst)] ++ post) (Some DEFAULT_CRS_COORD_NAME)
            (out_attrs itol (x_attrs src) nd)
            (aupdate (filter (fun nc => keep_pred syd sxd (snd nc)) (x_coords src)) new) [])).
Proof.
  intros Hl Hb Hc Hsd Hd Hne Hok dy dx.
  unfold reproject_da. rewrite Hl. simpl. rewrite Hb.
  destruct (box_crs sb) as [c0|] eqn:Ec; [|congruence]. rewrite Hsd.
  assert (Hnames : map fst (x_dims src) = map fst pre ++ syd :: sxd :: map fst post).
  { rewrite Hd, !map_app. reflexivity. }
  assert (Hpre : forall k, k = syd \/ k = sxd -> ~ In k (map fst pre)).
  { intros k Hk Hin. apply in_map_iff in Hin. destruct Hin as (dn & <- & Hdn).
    destruct (Hok dn) as (_ & N1 & N2); [apply in_or_app; now left|]. destruct Hk; congruence. }
  rewrite Hnames. cbn [fst snd]. rewrite !index_of_skip by (apply Hpre; auto). simpl index_of.
  rewrite !String.eqb_refl, (eqb_neq sxd syd), Z.eqb_refl by congruence. cbn [negb].
  destruct (xr_coords tol (ABox dst) (Some DEFAULT_CRS_COORD_NAME)) as [new|e]; simpl; [|reflexivity].
  subst dy dx. destruct (crs_dims (g_crs dst)) as [dy dx] eqn:Ecd. cbn [fst snd].
  rewrite Hd. rewrite (flat_map_dims syd sxd dy dx (g_ny dst) (g_nx dst) pre n1 n2 post Hne Hok).
  reflexivity.
Qed.

Lemma out_georef pre post syd sxd (c : option crs) ny nx fyl fxl ay ax Py P cc at_ kept :
  other_dims_ok (pre ++ post) syd sxd -> 0 <= ny -> 0 <= nx ->
  clean_attrs at_ ->
  filter (fun nc => is_spatial_ref (snd nc)) kept = [] ->
  co_dims cc = [] -> is_spatial_ref cc = true ->
  let dy := fst (crs_dims c) in
  let dx := snd (crs_dims c) in
  georef dy dx fyl fxl ay ax Py P (Some DEFAULT_CRS_COORD_NAME) (Some (DEFAULT_CRS_COORD_NAME, cc)) (iota ny) (iota nx)
         (XObj false (pre ++ [(dy, ny); (dx, nx)] ++ post) (Some DEFAULT_CRS_COORD_NAME) at_
               (aupdate kept [(dy, Coord [dy] (map fyl (iota ny)) ay Py);
                              (dx, Coord [dx] (map fxl (iota nx)) ax P);
                              (DEFAULT_CRS_COORD_NAME, cc)]) []).
Proof.
  intros Hok Hny Hnx (A1 & A2 & A3) Hk Hcd Hcs dy dx.
  destruct (out_dims_facts pre post syd sxd c ny nx Hok) as (D1 & D2 & D3). fold dy dx in D1, D2, D3.
  assert (N : dy <> dx /\ dy <> DEFAULT_CRS_COORD_NAME /\ dx <> DEFAULT_CRS_COORD_NAME).
  { subst dy dx. destruct (crs_dims_cases c) as [E|E]; rewrite E; repeat split; discriminate. }
  destruct N as (N1 & N2 & N3).
  unfold aupdate. cbn [fold_left fst snd].
  constructor; [constructor|..]; cbn [x_is_ds x_dims x_gm x_attrs x_coords]; auto.
  - split; cbn [x_dims x_coords]; [rewrite D2, zlen_iota; f_equal; lia|].
    rewrite !lookup_aset. rewrite (eqb_neq dy DEFAULT_CRS_COORD_NAME N2), (eqb_neq dy dx N1), String.eqb_refl. reflexivity.
  - split; cbn [x_dims x_coords]; [rewrite D3, zlen_iota; f_equal; lia|].
    rewrite !lookup_aset. rewrite (eqb_neq dx DEFAULT_CRS_COORD_NAME N3), String.eqb_refl. reflexivity.
  - rewrite (filter_aset_nil is_spatial_ref).
    + rewrite Hcs. reflexivity.
    + rewrite (filter_aset_nil is_spatial_ref); [reflexivity|].
      rewrite (filter_aset_nil is_spatial_ref); [reflexivity | exact Hk].
  - rewrite lookup_aset, String.eqb_refl. reflexivity.
Qed.

Lemma keep_no_spatial_ref syd sxd (cs : coords) :
  filter (fun nc => is_spatial_ref (snd nc)) (filter (fun nc => keep_pred syd sxd (snd nc)) cs) = [].
Proof.
  apply (filter_filter_nil is_spatial_ref (keep_pred syd sxd)).
  intros v H. unfold keep_pred in H. apply andb_true_iff in H. destruct H as (H & _).
  destruct (is_spatial_ref v); [discriminate | reflexivity].
Qed.

Lemma reproject_da_out tol itol src dst nd {st sb syd sxd pre post n1 n2 fyl fxl ay ax Py P cc} :
  locate_geo_info repaired tol src = Ok st -> gs_box st = Some sb -> box_crs sb <> None ->
  gs_sdims st = Some (syd, sxd) ->
  x_dims src = pre ++ [(syd, n1); (sxd, n2)] ++ post ->
  syd <> sxd -> other_dims_ok (pre ++ post) syd sxd ->
  0 <= g_ny dst -> 0 <= g_nx dst ->
  let dy := fst (crs_dims (g_crs dst)) in
  let dx := snd (crs_dims (g_crs dst)) in
  let new := [(dy, Coord [dy] (map fyl (iota (g_ny dst))) ay Py);
              (dx, Coord [dx] (map fxl (iota (g_nx dst))) ax P);
              (DEFAULT_CRS_COORD_NAME, cc)] in
  xr_coords tol (ABox dst) (Some DEFAULT_CRS_COORD_NAME) = Ok new ->
  co_dims cc = [] -> is_spatial_ref cc = true ->
  exists out,
    reproject_da repaired tol itol src dst nd = Ok out /\
    x_coords out = aupdate (filter (fun nc => keep_pred syd sxd (snd nc)) (x_coords src)) new /\
    x_attrs out = out_attrs itol (x_attrs src) nd /\
    x_gm out = Some DEFAULT_CRS_COORD_NAME /\
    x_dims out = pre ++ [(dy, g_ny dst); (dx, g_nx dst)] ++ post /\
    georef_w dy dx fyl fxl ay ax Py P (Some (DEFAULT_CRS_COORD_NAME, cc)) (iota (g_ny dst)) (iota (g_nx dst)) out.
Proof.
  intros Hl Hb Hc Hsd Hd Hne Hok Hny Hnx dy dx new Hnew Hcd Hcs.
  rewrite (reproject_da_unfold tol itol src dst nd st sb syd sxd pre n1 n2 post Hl Hb Hc Hsd Hd Hne Hok), Hnew.
  eexists. repeat (split; [reflexivity|]).
  eapply georef_weaken, out_georef; eauto using clean_out_attrs, keep_no_spatial_ref.
Qed.

Lemma lookup_amerge {V} (a b : list (string * V)) k :
  lookup k (amerge a b) = match lookup k a with Some v => Some v | None => lookup k b end.
Proof.
  unfold amerge. revert a. induction b as [|(kb, vb) b IH]; intros a; simpl.
  - destruct (lookup k a); reflexivity.
  - rewrite IH. destruct (lookup kb a) as [v0|] eqn:E.
    + destruct (lookup k a) eqn:E2; auto.
      destruct (String.eqb k kb) eqn:E3; auto. apply String.eqb_eq in E3; subst. congruence.
    + rewrite lookup_app. destruct (lookup k a); auto. simpl. destruct (String.eqb k kb); reflexivity.
Qed.

Lemma fold_amerge_lookup {O V} (g : O -> list (string * V)) (outs : list O) (acc : list (string * V)) k v :
  (forall o, In o outs -> lookup k (g o) = None \/ lookup k (g o) = Some v) ->
  (lookup k acc = Some v \/ (lookup k acc = None /\ exists o, In o outs /\ lookup k (g o) = Some v)) ->
  lookup k (fold_left (fun a o => amerge a (g o)) outs acc) = Some v.
Proof.
  revert acc. induction outs as [|o outs IH]; intros acc Hall H; simpl.
  - destruct H as [H|(_ & o & [] & _)]; exact H.
  - apply IH; [intros; apply Hall; now right|].
    rewrite lookup_amerge.
    destruct H as [H|(H & o' & [<-|Hin] & Ho')].
    + left. rewrite H. reflexivity.
    + left. rewrite H. exact Ho'.
    + rewrite H. destruct (Hall o (or_introl eq_refl)) as [E|E]; rewrite E; [right; split; eauto | left; reflexivity].
Qed.

Lemma lookup_filter_val {V} (p : V -> bool) (l : list (string * V)) k v :
  lookup k l = Some v -> p v = true -> lookup k (filter (fun nc => p (snd nc)) l) = Some v.
Proof.
  induction l as [|(k', v') l IH]; simpl; [discriminate|].
  destruct (String.eqb k k') eqn:E.
  - intros H Hp; injection H as ->. rewrite Hp. simpl. rewrite E. reflexivity.
  - intros H Hp. destruct (p v'); simpl; [rewrite E|]; apply IH; auto.
Qed.

Lemma lookup_map_pair {V} (f : string -> V) l d : In d l -> lookup d (map (fun d0 => (d0, f d0)) l) = Some (f d).
Proof.
  induction l as [|h l IH]; simpl; [tauto|].
  destruct (String.eqb d h) eqn:E; [apply String.eqb_eq in E; subst; reflexivity|].
  intros [->|H]; [rewrite String.eqb_refl in E; discriminate | apply IH; exact H].
Qed.

Lemma mapM_res_lookup {B} (f : string * xvar -> res (string * B)) {W} (G : B -> W) l bs a b :
  NoDup (map fst l) ->
  (forall a0 b0, f a0 = Ok b0 -> fst b0 = fst a0) ->
  mapM_res f l = Ok bs -> In a l -> f a = Ok b ->
  lookup (fst a) (map (fun no => (fst no, G (snd no))) bs) = Some (G (snd b)).
Proof.
  intros Hnd Hfst H%mapM_Forall2. induction H as [|a0 b0 l bs Ef _ IH]; [intros []|].
  simpl in Hnd. apply NoDup_cons_iff in Hnd. destruct Hnd as (Hn1 & Hn2).
  intros [->|Hin] Hf; simpl.
  - rewrite Ef in Hf; injection Hf as <-. rewrite (Hfst a b0 Ef), String.eqb_refl. reflexivity.
  - rewrite (Hfst a0 b0 Ef).
    destruct (String.eqb (fst a) (fst a0)) eqn:E.
    + apply String.eqb_eq in E. exfalso. apply Hn1. rewrite <- E. apply in_map. exact Hin.
    + apply IH; auto.
Qed.

Lemma reproject_ds_var_fst fx tol itol src dst nd nv b :
  reproject_ds_var fx tol itol src dst nd nv = Ok b -> fst b = fst nv.
Proof.
  unfold reproject_ds_var.
  destruct (ds_getitem src (fst nv)) as [dv|]; [|discriminate].
  destruct (locate_geo_info fx tol dv) as [st0|]; simpl; [|discriminate].
  destruct (gs_box st0); [destruct (fx_ds_dims fx && negb _)|]; try (intros [= <-]; reflexivity).
  destruct (reproject_da fx tol itol dv dst nd); simpl; [|discriminate]. intros [= <-]. reflexivity.
Qed.

Section DsView.
  Variables (out : xobj) (name : string) (v : xvar) (pre post : list (string * Z)) (syd sxd : string)
            (c : option crs) (ny nx : Z) (fyl fxl : Z -> Q) (ay ax : attrs) (Py P : option aff) (cc : coord).
  Let dy := fst (crs_dims c).
  Let dx := snd (crs_dims c).
  Hypothesis Hv : lookup name (x_vars out) = Some v.
  Hypothesis Hgm : v_gm v = Some DEFAULT_CRS_COORD_NAME.
  Hypothesis Hat : lookup "crs" (v_attrs v) = None /\ lookup "crs_wkt" (v_attrs v) = None.
  Hypothesis Hvd : v_dims v = map fst (pre ++ [(dy, ny); (dx, nx)] ++ post).
  Hypothesis Hok : other_dims_ok (pre ++ post) syd sxd.
  Hypothesis Hdy : lookup dy (x_dims out) = Some ny.
  Hypothesis Hdx : lookup dx (x_dims out) = Some nx.
  Hypothesis Hcy : lookup dy (x_coords out) = Some (Coord [dy] (map fyl (iota ny)) ay Py).
  Hypothesis Hcx : lookup dx (x_coords out) = Some (Coord [dx] (map fxl (iota nx)) ax P).
  Hypothesis Hcc : lookup DEFAULT_CRS_COORD_NAME (x_coords out) = Some cc.
  Hypothesis Hccd : co_dims cc = [].
  Hypothesis Hny : 0 <= ny.
  Hypothesis Hnx : 0 <= nx.

  Lemma ds_view_georef :
    exists view, ds_getitem out name = Some view /\ x_attrs view = v_attrs v /\
                 georef_w dy dx fyl fxl ay ax Py P (Some (DEFAULT_CRS_COORD_NAME, cc)) (iota ny) (iota nx) view.
  Proof.
    unfold ds_getitem. rewrite Hv. eexists; split; [reflexivity|]. split; [reflexivity|].
    destruct (out_dims_facts pre post syd sxd c ny nx Hok) as (D1 & D2 & D3). fold dy dx in D1, D2, D3.
    assert (Iy : In dy (v_dims v)). { rewrite Hvd, !map_app. apply in_or_app; right. simpl; auto. }
    assert (Ix : In dx (v_dims v)). { rewrite Hvd, !map_app. apply in_or_app; right. simpl; auto. }
    split; [constructor|]; cbn [x_is_ds x_dims x_gm x_attrs x_coords].
    - reflexivity.
    - rewrite map_map. cbn [fst]. rewrite map_id. rewrite Hvd. exact D1.
    - split; cbn [x_dims x_coords].
      + rewrite (lookup_map_pair (fun d => match lookup d (x_dims out) with Some n => n | None => 0 end) _ dy Iy).
        rewrite Hdy, zlen_iota. f_equal; lia.
      + apply (lookup_filter_val (fun c0 => subsetb (co_dims c0) (v_dims v))); [exact Hcy|].
        simpl. apply smem_In in Iy. rewrite Iy. reflexivity.
    - split; cbn [x_dims x_coords].
      + rewrite (lookup_map_pair (fun d => match lookup d (x_dims out) with Some n => n | None => 0 end) _ dx Ix).
        rewrite Hdx, zlen_iota. f_equal; lia.
      + apply (lookup_filter_val (fun c0 => subsetb (co_dims c0) (v_dims v))); [exact Hcx|].
        simpl. apply smem_In in Ix. rewrite Ix. reflexivity.
    - exact Hat.
    - exists DEFAULT_CRS_COORD_NAME. unfold locate_crs_coords, grid_mapping_of. rewrite Hgm.
      rewrite (lookup_filter_val (fun c0 => subsetb (co_dims c0) (v_dims v)) _ _ cc Hcc); [reflexivity|].
      rewrite Hccd. reflexivity.
  Qed.
End DsView.

Section ReprojectDs.
  Variables (tol itol : Q) (src : xobj) (dst : gbox) (nd : option Q) (out : xobj).
  Variables (fyl fxl : Z -> Q) (ay ax : attrs) (Py P : option aff) (cc : coord).
  Local Notation dy := (fst (crs_dims (g_crs dst))).
  Local Notation dx := (snd (crs_dims (g_crs dst))).
  Local Notation ny := (g_ny dst).
  Local Notation nx := (g_nx dst).
  Local Notation sr := DEFAULT_CRS_COORD_NAME.
  Local Notation cy := (Coord [dy] (map fyl (iota ny)) ay Py).
  Local Notation cx := (Coord [dx] (map fxl (iota nx)) ax P).
  Local Notation new := ([(dy, cy); (dx, cx); (sr, cc)] : coords).
  Hypothesis Hnew : xr_coords tol (ABox dst) (Some sr) = Ok new.
  Hypothesis Hccd : co_dims cc = [].
  Hypothesis Hny : 0 <= ny.
  Hypothesis Hnx : 0 <= nx.
  Hypothesis Hrun : reproject_ds repaired tol itol src dst nd = Ok out.
  Hypothesis Hnodup : NoDup (map fst (x_vars src)).

  Local Notation geo_var := (XrCoords.geo_var tol src).
  Local Notation plain_var := (XrCoords.plain_var tol itol src dst nd).

  Hypothesis Hall : forall nv, In nv (x_vars src) ->
                               (exists syd sxd pre post, geo_var nv syd sxd pre post) \/ plain_var nv.

  Lemma geo_var_out nv syd sxd pre post :
    geo_var nv syd sxd pre post ->
    exists dv,
      ds_getitem src (fst nv) = Some dv /\
      reproject_ds_var repaired tol itol src dst nd nv =
      Ok (fst nv, XObj false (pre ++ [(dy, ny); (dx, nx)] ++ post) (Some sr) (out_attrs itol (x_attrs dv) nd)
                        (aupdate (filter (fun nc => keep_pred syd sxd (snd nc)) (x_coords dv)) new) []).
  Proof.
    intros ((dv & st & sb & n1 & n2 & E1 & E2 & E3 & E4 & E5 & E6) & Esd & Hne & Hok).
    exists dv. split; [exact E1|].
    unfold reproject_ds_var. rewrite E1, E2. simpl. rewrite E3, Esd.
    assert (Hsp : subsetb [syd; sxd] (map fst (x_dims dv)) = true).
    { rewrite E6, !map_app. cbn [fst snd subsetb forallb map].
      rewrite !smem_app. cbn [smem existsb]. rewrite !String.eqb_refl.
      rewrite !orb_true_r. reflexivity. }
    cbv beta iota. cbn [fst snd]. cbn [subsetb forallb] in Hsp. rewrite Hsp. cbn [negb].
    rewrite (reproject_da_unfold tol itol dv dst nd st sb syd sxd pre n1 n2 post E2 E3 E4 E5 E6 Hne Hok).
    rewrite Hnew. reflexivity.
  Qed.

  Lemma new_lookups :
    lookup dy (rev new) = Some cy /\ lookup dx (rev new) = Some cx /\ lookup sr (rev new) = Some cc.
  Proof.
    assert (N : dy <> dx /\ dy <> sr /\ dx <> sr).
    { destruct (crs_dims_cases (g_crs dst)) as [E|E]; rewrite E; repeat split; discriminate. }
    destruct N as (N1 & N2 & N3). simpl.
    rewrite (eqb_neq dy sr N2), (eqb_neq dy dx N1), (eqb_neq dx sr N3), !String.eqb_refl. auto.
  Qed.

  Lemma outs_of_run :
    exists outs,
      mapM_res (reproject_ds_var repaired tol itol src dst nd) (x_vars src) = Ok outs /\
      out = XObj true (fold_left (fun acc no => amerge acc (x_dims (snd no))) outs []) None
                 (prune_spatial (x_attrs src))
                 (fold_left (fun acc no => amerge acc (x_coords (snd no))) outs [])
                 (map (fun no => (fst no, XVar (map fst (x_dims (snd no))) (x_attrs (snd no)) (x_gm (snd no)))) outs).
  Proof.
    unfold reproject_ds in Hrun.
    destruct (locate_geo_info repaired tol src) as [st|]; simpl in Hrun; [|discriminate].
    destruct (gs_box st); [|discriminate].
    destruct (mapM_res (reproject_ds_var repaired tol itol src dst nd) (x_vars src)) as [outs|]; simpl in Hrun; [|discriminate].
    injection Hrun as <-. exists outs. split; reflexivity.
  Qed.

  Lemma outs_agree outs :
    mapM_res (reproject_ds_var repaired tol itol src dst nd) (x_vars src) = Ok outs ->
    forall no, In no outs ->
      (lookup dy (x_coords (snd no)) = None \/ lookup dy (x_coords (snd no)) = Some cy) /\
      (lookup dx (x_coords (snd no)) = None \/ lookup dx (x_coords (snd no)) = Some cx) /\
      (lookup sr (x_coords (snd no)) = None \/ lookup sr (x_coords (snd no)) = Some cc) /\
      (lookup dy (x_dims (snd no)) = None \/ lookup dy (x_dims (snd no)) = Some ny) /\
      (lookup dx (x_dims (snd no)) = None \/ lookup dx (x_dims (snd no)) = Some nx).
  Proof.
    intros Hm no Hin.
    destruct (proj1 (mapM_In _ _ _ Hm _) Hin) as (nv & Hnv & Hf).
    destruct (Hall nv Hnv) as [(syd & sxd & pre & post & Hg)|(o & Ho & Q1 & Q2 & Q3 & Q4 & Q5)].
    - destruct (geo_var_out nv syd sxd pre post Hg) as (dv & _ & E). rewrite E in Hf. apply Ok_inj in Hf. subst no.
      destruct Hg as (_ & _ & _ & Hok).
      destruct (out_dims_facts pre post syd sxd (g_crs dst) ny nx Hok) as (_ & D2 & D3).
      destruct new_lookups as (L1 & L2 & L3).
      cbn [snd x_coords x_dims]. rewrite !lookup_aupdate, L1, L2, L3. auto 10.
    - rewrite Ho in Hf. injection Hf as <-. cbn [snd]. rewrite Q1, Q2, Q3, Q4, Q5. auto 10.
  Qed.

  Lemma reproject_ds_out :
    (forall k, In k SPATIAL_ATTRIBUTES -> lookup k (x_attrs out) = None) /\
    (forall k, ~ In k SPATIAL_ATTRIBUTES -> lookup k (x_attrs out) = lookup k (x_attrs src)) /\
    forall nv syd sxd pre post,
      In nv (x_vars src) -> geo_var nv syd sxd pre post ->
      exists v view,
        lookup (fst nv) (x_vars out) = Some v /\
        (forall k, In k SPATIAL_ATTRIBUTES -> lookup k (v_attrs v) = None) /\
        ds_getitem out (fst nv) = Some view /\
        georef_w dy dx fyl fxl ay ax Py P (Some (sr, cc)) (iota ny) (iota nx) view.
  Proof.
    destruct outs_of_run as (outs & Hm & Eout).
    split; [intros; rewrite Eout; now apply prune_spatial_removed|].
    split; [intros; rewrite Eout; now apply prune_spatial_kept|].
    intros nv syd sxd pre post Hin Hg.
    destruct (geo_var_out nv syd sxd pre post Hg) as (dv & Edv & E).
    set (o := XObj false (pre ++ [(dy, ny); (dx, nx)] ++ post) (Some sr) (out_attrs itol (x_attrs dv) nd)
                   (aupdate (filter (fun nc => keep_pred syd sxd (snd nc)) (x_coords dv)) new) []) in *.
    pose proof (mapM_res_lookup _ (fun o0 : xobj => XVar (map fst (x_dims o0)) (x_attrs o0) (x_gm o0))
                                _ _ nv (fst nv, o) Hnodup (reproject_ds_var_fst _ _ _ _ _ _) Hm Hin E) as Lv.
    cbn [snd] in Lv.
    destruct (mapM_In_fwd _ _ _ nv Hm Hin) as (b & Hb & Hfb). rewrite E in Hfb. injection Hfb as <-.
    destruct Hg as (_ & _ & _ & Hok).
    (* the merged Dataset has what this output has, since all outputs agree *)
    assert (M : forall {V} (g : xobj -> list (string * V)) k w,
               (forall no, In no outs -> lookup k (g (snd no)) = None \/ lookup k (g (snd no)) = Some w) ->
               lookup k (g o) = Some w ->
               lookup k (fold_left (fun acc no => amerge acc (g (snd no))) outs []) = Some w).
    { intros V g k w Ha Ho. apply fold_amerge_lookup; [exact Ha|]. right. split; [reflexivity|]. eauto. }
    pose proof (outs_agree outs Hm) as Hag.
    destruct (out_dims_facts pre post syd sxd (g_crs dst) ny nx Hok) as (_ & D2 & D3).
    destruct new_lookups as (L1 & L2 & L3).
    assert (Lv' : lookup (fst nv) (x_vars out) = Some (XVar (map fst (x_dims o)) (x_attrs o) (x_gm o)))
      by (rewrite Eout; exact Lv).
    destruct (ds_view_georef out (fst nv) _ pre post syd sxd
                (g_crs dst) ny nx fyl fxl ay ax Py P cc Lv') as (view & V1 & V2 & V3); auto.
    1-6: rewrite ?Eout; cbn [x_dims x_coords].
    - exact (proj2 (clean_out_attrs itol (x_attrs dv) nd)).
    - apply (M _ x_dims); [intros no Hno; apply (Hag no Hno) | exact D2].
    - apply (M _ x_dims); [intros no Hno; apply (Hag no Hno) | exact D3].
    - apply (M _ x_coords); [intros no Hno; apply (Hag no Hno) | unfold o; cbn [x_coords]; now rewrite lookup_aupdate, L1].
    - apply (M _ x_coords); [intros no Hno; apply (Hag no Hno) | unfold o; cbn [x_coords]; now rewrite lookup_aupdate, L2].
    - apply (M _ x_coords); [intros no Hno; apply (Hag no Hno) | unfold o; cbn [x_coords]; now rewrite lookup_aupdate, L3].
    - exists (XVar (map fst (x_dims o)) (x_attrs o) (x_gm o)), view.
      split; [exact Lv'|]. split; [intros k Hk; apply out_attrs_spatial; exact Hk|].
      split; [exact V1 | exact V3].
  Qed.
End ReprojectDs.
