(** History (in)dependence of [CRS(spec)], lossless-equivalent specifications,
    pickling of CRS instances — over Model/CrsCache.v, under the oracle
    contracts [contracts W].  String forms: what a cached entry must satisfy for a hit to be
    harmless ([coherent_for]), and the string-keyed histories in which every entry does
    ([str_cache]).  Equality: the invariant [good] ties every cached entry and every live
    instance to the pyproj object it stands for, so [==] is pyproj equality ([crs_eq_iff_peq]). *)
From Coq Require Import ZArith List Bool.
From OG Require Import Base.Result Model.CrsCache Proofs.CrsCacheProofs.
Import ListNotations.
Open Scope Z_scope.

Section History.
  Variable W : oracle.
  Hypothesis K : contracts W.

  Notation step := (step W).
  Notation run := (run W).
  Notation make_crs := (make_crs W).
  Notation crs_new := (crs_new W).
  Notation peq := (o_peq W).
  Notation prep := (o_prep W).
  Notation sp_srs := (sp_srs W).
  Notation link := (link W).

  Lemma peq_refl a : peq a a = true.
  Proof. apply (k_refl W K). Qed.
  Lemma peq_sym a b : peq a b = true -> peq b a = true.
  Proof. apply (k_sym W K). Qed.
  Lemma peq_trans b a c : peq a b = true -> peq b c = true -> peq a c = true.
  Proof. apply (k_trans W K). Qed.

  Lemma link_closed st nid s sp stm :
    link st nid s sp stm -> closed s = true ->
    sp_srs sp = spec_srs W s /\ forall srs, spec_srs W s = Some srs -> sp = spec_mspec s nid srs.
  Proof.
    intros L C. destruct L as [n|t|s t r stm Hs P _| |]; try discriminate; auto.
    destruct Hs as [-> | ->]; simpl; rewrite P; split; auto; intros srs E; inversion E; reflexivity.
  Qed.

  Lemma link_pickle st nid i sp stm :
    link st nid (SpPickle i) sp stm -> exists v0, get_var st i = Ok v0 /\ sp = MStr (c_str v0) /\ stm = st.
  Proof. intros L. inversion L as [| |? ? ? ? [E|E]| |]; subst; try discriminate E. eauto. Qed.

  Definition coherent_for (st : state) (k : key) (str : text) : Prop :=
    forall k' e, In (k', e) (cache st) -> key_eqb W k' k = true -> e_str e = str.

  Theorem crs_str_partial st s nid st1 v srs :
    closed s = true -> spec_srs W s = Some srs ->
    crs_new st s nid = Ok (st1, v) ->
    coherent_for st (make_key W (spec_mspec s nid srs)) (fresh_str W srs) ->
    c_str v = fresh_str W srs.
  Proof.
    intros C S H Co. apply crs_new_link in H. destruct H as [(i & -> & _)|(sp & stm & e & L & M & ->)]; [discriminate|].
    destruct (link_closed _ _ _ _ _ L C) as (Ssp & E). rewrite (E _ S) in *. rewrite S in Ssp.
    pose proof (link_cache _ _ _ _ _ _ L) as Ec.
    apply make_crs_cases in M. destruct M as [(-> & k' & Hin & Hk)|(srs' & id & stm' & S' & _ & -> & _)].
    - simpl. rewrite Ec in Hin. eapply Co; eauto.
    - simpl. rewrite norm_entry_str. congruence.
  Qed.

  Corollary crs_str_fresh s nid st1 v srs :
    closed s = true -> spec_srs W s = Some srs -> crs_new init s nid = Ok (st1, v) -> c_str v = fresh_str W srs.
  Proof. intros C S H. eapply crs_str_partial; eauto. intros k' e []. Qed.

  (** string-keyed histories: the cached [_str] is a function of the key *)
  Definition str_cache (st : state) : Prop :=
    forall k e, In (k, e) (cache st) -> exists t, k = KStr t /\ e_str e = str_of_key W t.

  Lemma epsg_upper_false t : o_is_epsg W (o_upper W t) = false -> o_is_epsg W t = false.
  Proof.
    intros H. destruct (o_is_epsg W t) eqn:E; auto. apply (k_epsg_upper W K) in E. congruence.
  Qed.

  Lemma etext_spec n srs :
    prep (o_epsg_text W n) = Some srs ->
    srs = o_epsg_text W n /\ o_is_epsg W srs = true /\ o_upper W srs = srs /\ o_code W srs = n.
  Proof.
    intros S. destruct (k_etext W K n srs S) as (A & B & C).
    assert (E : o_is_epsg W (o_upper W (o_epsg_text W n)) = true) by (rewrite B; exact A).
    rewrite (k_prep_epsg W K _ _ E S). auto.
  Qed.

  Lemma strkey_fresh sp srs :
    (forall i s, sp <> MObj i s) -> sp_srs sp = Some srs ->
    exists p, make_key W sp = KStr p /\ str_of_key W p = fresh_str W srs.
  Proof.
    intros N S. destruct sp as [t|n|i s]; [| |destruct (N i s eq_refl)]; simpl in *.
    - destruct (o_is_epsg W (o_upper W t)) eqn:E.
      + exists (o_upper W t). split; auto. unfold str_of_key. rewrite E.
        rewrite (k_prep_epsg W K t srs E S). symmetry. apply fresh_str_epsg, E.
      + exists t. split; auto. unfold str_of_key. rewrite (epsg_upper_false _ E), S. reflexivity.
    - destruct (etext_spec n srs S) as (-> & A & B & _). exists (o_epsg_text W n). split; auto.
      unfold str_of_key. rewrite A, fresh_str_epsg, B; auto. rewrite B; exact A.
  Qed.

  Lemma key_eqb_str a b : key_eqb W (KStr a) (KStr b) = true -> a = b.
  Proof. unfold key_eqb; simpl. intros H. apply andb_true_iff in H. destruct H as (_ & H). apply Z.eqb_eq; auto. Qed.

  Lemma str_cache_coherent st sp srs :
    str_cache st -> (forall i s, sp <> MObj i s) -> sp_srs sp = Some srs ->
    coherent_for st (make_key W sp) (fresh_str W srs).
  Proof.
    intros Sc N S k' e Hin Hk. destruct (strkey_fresh sp srs N S) as (p & Ep & Es).
    destruct (Sc k' e Hin) as (t & -> & Et). rewrite Ep in Hk. apply key_eqb_str in Hk. subst. congruence.
  Qed.

  Lemma str_cache_make st sp nid st1 e :
    str_cache st -> (forall i s, sp <> MObj i s) -> make_crs st sp nid = Ok (st1, e) -> str_cache st1.
  Proof.
    intros Sc N M. apply make_crs_cases in M.
    destruct M as [(-> & _)|(srs & id & stm & S & [(E & _)|(_ & _ & A)] & -> & ->)]; auto; [destruct (N _ _ E)|].
    apply alloc_ok in A. destruct A as (-> & _).
    intros k e [Hin|Hin]; [|apply Sc; auto].
    inversion Hin; subst. destruct (strkey_fresh sp srs N S) as (p & Ep & Es).
    exists p. split; auto. rewrite norm_entry_str. auto.
  Qed.

  Lemma str_cache_step st o st' x : strkey_op o = true -> str_cache st -> step st o = Ok (st', x) -> str_cache st'.
  Proof.
    intros So Sc H. unfold str_cache.
    destruct (step_cache W _ _ _ _ H) as [->|(s & nid & st1 & v & -> & N & ->)]; [exact Sc|].
    apply crs_new_link in N. destruct N as [(i & -> & -> & _)|(sp & stm & e & L & M & ->)]; [exact Sc|].
    (* the specifications left by [strkey_op] reach [_make_crs] with a string or an integer, in the state [st] *)
    destruct L as [| |s t srs stm [-> | ->]| |]; try discriminate So;
      (eapply str_cache_make; [exact Sc| |exact M]; discriminate).
  Qed.

  Lemma str_cache_run h st : forallb strkey_op h = true -> str_cache st -> str_cache (run st h).
  Proof.
    intros F. apply run_preserves. intros s o s' x Hin. apply str_cache_step.
    exact (proj1 (forallb_forall _ _) F o Hin).
  Qed.

  (** history independence for the string-keyed world (ints, strings in any spelling, CRS copies, pickled copies) *)
  Theorem crs_str_history_independent_strings h s nid nid' st1 st1' v v' :
    forallb strkey_op h = true -> (exists n, s = SpInt n) \/ (exists t, s = SpStr t) ->
    crs_new (run init h) s nid = Ok (st1, v) -> crs_new init s nid' = Ok (st1', v') ->
    c_str v = c_str v'.
  Proof.
    intros F Hs H H'.
    assert (C : closed s = true) by (destruct Hs as [(n & ->)|(t & ->)]; reflexivity).
    assert (N : forall srs i r, spec_mspec s nid srs <> MObj i r) by (destruct Hs as [(n & ->)|(t & ->)]; discriminate).
    assert (Ssrs : exists srs, sp_srs (spec_mspec s nid srs) = Some srs /\ spec_srs W s = Some srs).
    { (* with nothing cached the construction succeeds only if pyproj accepts the specification *)
      pose proof H' as H0. apply crs_new_link in H0.
      destruct H0 as [(i & -> & _)|(sp & stm & e & L & M & _)]; [discriminate|].
      destruct (link_closed _ _ _ _ _ L C) as (Ssp & E). pose proof (link_cache _ _ _ _ _ _ L) as Ec.
      apply make_crs_cases in M. destruct M as [(_ & k' & Hin & _)|(srs & _ & _ & S & _)].
      - rewrite Ec in Hin. destruct Hin.
      - exists srs. rewrite Ssp in S. split; auto.
        destruct Hs as [(n & ->)|(t & ->)]; exact S. }
    destruct Ssrs as (srs & Ssp & S).
    rewrite (crs_str_fresh _ _ _ _ _ C S H').
    eapply crs_str_partial; eauto.
    apply str_cache_coherent; auto. apply str_cache_run; auto. intros k e [].
  Qed.

  Definition valid_heap (st : state) : Prop := forall i s, In (i, s) (heap st) -> prep s = Some s.
  Definition key_denotes (k : key) (srs : text) : Prop :=
    match k with
    | KStr t => exists r, prep t = Some r /\ peq srs r = true
    | KObj _ s => peq srs s = true
    end.
  Definition entry_ok (e : entry) : Prop :=
    (e_epsg e = 0 \/ Some (e_epsg e) = o_to_epsg W (e_srs e)) /\ e_str e = fresh_str W (e_srs e).
  Definition var_ok (v : crsv) : Prop := epsg_ok W v /\ c_str v = fresh_str W (c_srs v).

  Record good (st : state) : Prop := mkGood {
    g_inv : inv st;
    g_heap : valid_heap st;
    g_cache : forall k e, In (k, e) (cache st) -> key_denotes k (e_srs e) /\ entry_ok e;
    g_vars : all_some var_ok (vars st)
  }.

  Lemma good_init : good init.
  Proof. constructor; simpl; try tauto. apply inv_init. intros i s []. intros v []. Qed.

  Lemma good_frame st st' :
    good st -> inv st' -> (forall p, In p (heap st') -> In p (heap st)) -> cache st' = cache st ->
    all_some var_ok (vars st') -> good st'.
  Proof.
    intros [_ Vh Gc _] I' Hh Ec Gv. constructor; auto.
    - intros i s H. exact (Vh i s (Hh _ H)).
    - rewrite Ec. exact Gc.
  Qed.

  Lemma var_ok_entry e : entry_ok e -> var_ok (crs_of_entry e).
  Proof.
    intros (A & B). split; simpl; auto. unfold epsg_ok; simpl. destruct A as [A|A]; [left; congruence | right; auto].
  Qed.

  Lemma make_key_denotes sp srs : sp_srs sp = Some srs -> key_denotes (make_key W sp) srs.
  Proof.
    intros S. destruct sp as [t|n|i s]; simpl in *.
    - destruct (o_is_epsg W (o_upper W t)) eqn:E; simpl.
      + pose proof (k_prep_epsg W K t srs E S); subst srs. destruct (k_prep_upper W K t E S) as (A & B). eauto.
      + exists srs. split; auto. apply peq_refl.
    - exists srs. split; auto. apply peq_refl.
    - inversion S; subst. apply peq_refl.
  Qed.

  (** keys that CPython's dict treats as equal stand for pyproj-equal objects; [Hid]: one id, one object *)
  Lemma key_eqb_denotes k' k a b :
    key_eqb W k' k = true -> key_denotes k' a -> key_denotes k b ->
    (forall i s s', k' = KObj i s -> k = KObj i s' -> s = s') ->
    peq a b = true.
  Proof.
    intros E Da Db Hid. unfold key_eqb in E. apply andb_true_iff in E. destruct E as (_ & E).
    destruct k' as [t'|i s'], k as [t|j s]; simpl in Da, Db.
    - apply Z.eqb_eq in E. subst t'. destruct Da as (r & Pr & Qr), Db as (r' & Pr' & Qr').
      rewrite Pr in Pr'. inversion Pr'; subst r'. apply (peq_trans r); auto. apply peq_sym; auto.
    - unfold obj_eq_str in E. destruct Da as (r & Pr & Qr). rewrite Pr in E.
      apply (peq_trans r); auto. apply peq_sym, (peq_trans s); auto.
    - unfold obj_eq_str in E. destruct Db as (r & Pr & Qr). rewrite Pr in E.
      apply (peq_trans s'); auto. apply (peq_trans r); auto. apply peq_sym; auto.
    - apply orb_true_iff in E. destruct E as [E|E].
      + apply Z.eqb_eq in E. subst j. rewrite (Hid i s' s eq_refl eq_refl) in Da.
        apply (peq_trans s); auto. apply peq_sym; auto.
      + apply (peq_trans s'); auto. apply (peq_trans s); auto. apply peq_sym; auto.
  Qed.

  Lemma norm_entry_ok id srs e0 :
    prep srs = Some srs ->
    (e0 = 0 \/ (o_is_epsg W (o_upper W srs) = true /\ o_code W (o_upper W srs) = e0)) ->
    entry_ok (norm_entry W id srs e0).
  Proof.
    intros V H. split; [|rewrite norm_entry_str; destruct (norm_entry_id W id srs e0) as (_ & ->); reflexivity].
    unfold norm_entry. destruct (o_is_epsg W (o_upper W srs)) eqn:E; simpl.
    - destruct (Z.eqb_spec (o_code W (o_upper W srs)) 0) as [Z0|NZ]; simpl.
      + (* not a single code (compound definition): [_epsg] stays what it was *)
        destruct H as [->|(_ & H)]; [left; reflexivity|]. left. rewrite <- H, Z0. reflexivity.
      + right. symmetry. apply (k_toepsg_code W K); auto.
    - destruct H as [->|(H & _)]; [left; reflexivity | discriminate].
  Qed.

  Lemma sp_epsg_ok sp srs :
    sp_srs sp = Some srs ->
    sp_epsg sp = 0 \/ (o_is_epsg W (o_upper W srs) = true /\ o_code W (o_upper W srs) = sp_epsg sp).
  Proof.
    intros S. destruct sp as [t|n|i s]; simpl; auto. right.
    destruct (etext_spec n srs S) as (_ & A & -> & C). auto.
  Qed.

  Lemma good_alloc st nid srs stm : good st -> prep srs = Some srs -> alloc st nid srs = Ok stm -> good stm.
  Proof.
    intros G V A. destruct (inv_alloc _ _ _ _ (g_inv _ G) A) as (I1 & _).
    destruct G as [_ Vh Gc Gv]. apply alloc_ok in A. destruct A as (-> & _).
    constructor; simpl; auto.
    intros i s [H|H]; [injection H as <- <-; auto | eapply Vh; eauto].
  Qed.

  Lemma make_crs_good st sp nid st1 e :
    good st -> (forall i s, sp = MObj i s -> In (i, s) (heap st)) ->
    make_crs st sp nid = Ok (st1, e) ->
    good st1 /\ entry_ok e /\ forall srs, sp_srs sp = Some srs -> peq (e_srs e) srs = true.
  Proof.
    intros G Hobj M. pose proof (g_inv _ G) as I.
    destruct (make_crs_inv W _ _ _ _ _ I Hobj M) as (I1 & _).
    apply make_crs_cases in M. destruct M as [(-> & k' & Hin & Hk)|(srs & id & stm & S & C & -> & ->)].
    - destruct (g_cache _ G k' e Hin) as (De & Oe). split; auto. split; auto.
      intros srs S. apply (key_eqb_denotes _ _ _ _ Hk De (make_key_denotes sp srs S)).
      intros i s s' -> Ek. apply make_key_obj in Ek.
      destruct (inv_cache _ I _ _ Hin) as (_ & Hko).
      exact (NoDup_fst_fun _ i _ _ (inv_nodup _ I) (Hko _ _ eq_refl) (Hobj _ _ Ek)).
    - assert (Gm : good stm /\ prep srs = Some srs).
      { destruct C as [(E & ->) | (N & _ & A)].
        - split; auto. apply (g_heap _ G id), Hobj, E.
        - assert (V : prep srs = Some srs).
          { destruct sp as [t|n|i s]; simpl in S; [| |destruct (N i s eq_refl)]; apply (k_prep_idem W K _ _ S). }
          split; auto. exact (good_alloc _ _ _ _ G V A). }
      destruct Gm as (Gm & V).
      destruct (norm_entry_id W id srs (sp_epsg sp)) as (_ & Es).
      pose proof (norm_entry_ok id srs _ V (sp_epsg_ok sp srs S)) as Oe.
      split; [|split; auto].
      + constructor; [exact I1 | exact (g_heap _ Gm) | | exact (g_vars _ Gm)].
        intros k e [Hin|Hin]; [|apply (g_cache _ Gm); auto].
        inversion Hin; subst. split; auto. rewrite Es. apply make_key_denotes, S.
      + intros srs' S'. rewrite Es. rewrite S in S'. inversion S'; subst. apply peq_refl.
  Qed.

  Lemma link_good st nid s sp stm : good st -> link st nid s sp stm -> good stm.
  Proof.
    intros G L. destruct L as [| |s t srs stm _ P A| |]; auto.
    exact (good_alloc _ _ _ _ G (k_prep_idem W K _ _ P) A).
  Qed.

  Lemma crs_new_good st s nid st1 v :
    good st -> crs_new st s nid = Ok (st1, v) ->
    good st1 /\ var_ok v /\
    ((exists i, s = SpCrs i /\ get_var st i = Ok v) \/
     (exists sp stm, link st nid s sp stm /\ forall srs, sp_srs sp = Some srs -> peq (c_srs v) srs = true)).
  Proof.
    intros G H. apply crs_new_link in H. destruct H as [(i & -> & -> & Hv)|(sp & stm & e & L & M & ->)].
    - split; auto. split; [apply (g_vars _ G), (get_var_In _ _ _ Hv)|]. left; eauto.
    - destruct (link_inv W _ _ _ _ _ (g_inv _ G) L) as (_ & _ & Hobj).
      destruct (make_crs_good _ _ _ _ _ (link_good _ _ _ _ _ G L) Hobj M) as (G1 & Oe & P).
      split; auto. split; [apply var_ok_entry; auto|]. right. exists sp, stm. split; auto.
  Qed.

  Lemma crs_new_closed_peq st s nid st1 v srs :
    good st -> crs_new st s nid = Ok (st1, v) -> closed s = true -> spec_srs W s = Some srs ->
    var_ok v /\ peq (c_srs v) srs = true.
  Proof.
    intros G H C S. destruct (crs_new_good _ _ _ _ _ G H) as (_ & O & [(i & -> & _)|(sp & stm & L & P)]); [discriminate|].
    split; auto. apply P. destruct (link_closed _ _ _ _ _ L C) as (-> & _). exact S.
  Qed.

  Lemma to_epsg_ok v : var_ok v -> var_ok (to_epsg W v).
  Proof.
    intros (A & B). unfold to_epsg. destruct (oz_eqb (c_epsg v) (Some 0)); [|split; auto].
    split; simpl; auto. right; reflexivity.
  Qed.

  Theorem step_good st o st' x : good st -> step st o = Ok (st', x) -> good st'.
  Proof.
    intros G H. pose proof (step_inv W _ _ _ _ (g_inv _ G) H) as I'.
    destruct o as [t nid|s nid|i|i j|i|i| |i j xy]; simpl in H.
    - destruct (prep t) as [srs|] eqn:P; [|discriminate]. inv_ok H as st1 A. injection H as <- <-.
      pose proof (good_alloc _ _ _ _ G (k_prep_idem W K _ _ P) A) as G1.
      apply (good_frame st1); auto. exact (g_vars _ G1).
    - inv_ok H as [st1 v] N. injection H as <- <-. simpl in *.
      destruct (crs_new_good _ _ _ _ _ G N) as (G1 & Ov & _).
      apply (good_frame st1); auto; [exact (sweep_sub (with_vars st1 _))|].
      apply all_some_snoc; auto. exact (g_vars _ G1).
    - inv_ok H as v Hv. injection H as <- <-. apply (good_frame st); auto.
      apply all_some_set; [exact (g_vars _ G)|]. apply to_epsg_ok, (g_vars _ G), (get_var_In _ _ _ Hv).
    - inv_ok H as a Ha. inv_ok H as b Hb. injection H as <- <-; auto.
    - inv_ok H as v Hv. injection H as <- <-. apply (good_frame st); auto; [exact (sweep_sub (with_vars st _))|].
      apply all_some_set; [exact (g_vars _ G) | exact I].
    - inv_ok H as p Hp. injection H as <- <-. apply (good_frame st); auto; [exact (sweep_sub (with_pys st _))|].
      exact (g_vars _ G).
    - injection H as <- <-. apply (good_frame st); auto; [exact (sweep_sub st) | exact (g_vars _ G)].
    - inv_ok H as a Ha. inv_ok H as b Hb.
      destruct (tc_get (tcache st) (c_id a, c_id b, xy)); injection H as <- <-; auto.
      apply (good_frame st); auto. exact (g_vars _ G).
  Qed.

  Theorem run_good h st : good st -> good (run st h).
  Proof. apply run_preserves. intros s o s' x _. apply step_good. Qed.

  Lemma var_valid st v : good st -> In (Some v) (vars st) -> prep (c_srs v) = Some (c_srs v).
  Proof. intros G H. destruct (inv_vars _ (g_inv _ G) v H) as (A & _). eapply (g_heap _ G); eauto. Qed.

  Lemma truthy_some e : truthy e = true -> exists n, e = Some n /\ n <> 0.
  Proof.
    destruct e as [n|]; simpl; [|discriminate]. intros H. exists n. split; auto.
    intros ->. discriminate.
  Qed.

  Lemma oz_eqb_true a b : oz_eqb a b = true <-> a = b.
  Proof.
    destruct a, b; simpl; split; intros H; try discriminate; auto.
    - apply Z.eqb_eq in H. congruence.
    - inversion H. apply Z.eqb_refl.
  Qed.

  (** pyproj-equal instances with sane [_epsg] slots compare equal *)
  Theorem crs_eq_of_peq a b : epsg_ok W a -> epsg_ok W b -> peq (c_srs a) (c_srs b) = true -> crs_eq W a b = true.
  Proof.
    intros Ea Eb P. unfold crs_eq.
    destruct (c_id a =? c_id b); auto.
    destruct (truthy (c_epsg a) && truthy (c_epsg b) && negb (oz_eqb (c_epsg a) (c_epsg b))) eqn:T.
    - exfalso. apply andb_true_iff in T. destruct T as (T & Tn). apply andb_true_iff in T. destruct T as (Ta & Tb).
      apply truthy_some in Ta, Tb. destruct Ta as (n & En & Nn), Tb as (m & Em & Nm).
      assert (n = m).
      { destruct Ea as [Ea|Ea]; [rewrite Ea in En; inversion En; congruence|].
        destruct Eb as [Eb|Eb]; [rewrite Eb in Em; inversion Em; congruence|].
        rewrite Ea in En. rewrite Eb in Em. eapply (k_toepsg_peq W K); eauto. }
      subst. rewrite En, Em in Tn. simpl in Tn. rewrite Z.eqb_refl in Tn. discriminate.
    - destruct (c_str a =? c_str b); auto.
  Qed.

  Lemma fresh_str_valid s :
    prep s = Some s -> prep (fresh_str W s) = Some (fresh_str W s) /\ peq (fresh_str W s) s = true.
  Proof.
    intros V. destruct (o_is_epsg W (o_upper W s)) eqn:E.
    - rewrite (fresh_str_epsg W s E). destruct (k_prep_upper W K s E V) as (A & B). split; auto. apply peq_sym, B.
    - rewrite (fresh_str_other W s E). split; auto. apply peq_refl.
  Qed.

  Lemma fresh_str_idem s : fresh_str W (fresh_str W s) = fresh_str W s.
  Proof.
    destruct (o_is_epsg W (o_upper W s)) eqn:E.
    - rewrite (fresh_str_epsg W s E), fresh_str_epsg; rewrite (k_upper_idem W K); auto.
    - rewrite (fresh_str_other W s E). apply fresh_str_other, E.
  Qed.

  Lemma fresh_str_peq s1 s2 :
    prep s1 = Some s1 -> prep s2 = Some s2 -> fresh_str W s1 = fresh_str W s2 -> peq s1 s2 = true.
  Proof.
    intros V1 V2 E. destruct (fresh_str_valid s1 V1) as (_ & P1). destruct (fresh_str_valid s2 V2) as (_ & P2).
    rewrite E in P1. apply (peq_trans (fresh_str W s2)); auto. apply peq_sym, P1.
  Qed.

  Theorem crs_eq_iff_peq a b :
    var_ok a -> var_ok b -> prep (c_srs a) = Some (c_srs a) -> prep (c_srs b) = Some (c_srs b) ->
    (c_id a = c_id b -> c_srs a = c_srs b) ->
    (crs_eq W a b = true <-> peq (c_srs a) (c_srs b) = true).
  Proof.
    intros (Ea & Sa) (Eb & Sb) Va Vb Hid. split; [|apply crs_eq_of_peq; auto].
    unfold crs_eq. destruct (c_id a =? c_id b) eqn:Ei.
    - intros _. apply Z.eqb_eq in Ei. rewrite (Hid Ei). apply peq_refl.
    - destruct (truthy (c_epsg a) && truthy (c_epsg b) && negb (oz_eqb (c_epsg a) (c_epsg b))); [discriminate|].
      destruct (c_str a =? c_str b) eqn:Es; auto.
      intros _. apply Z.eqb_eq in Es. rewrite Sa, Sb in Es. apply fresh_str_peq; auto.
  Qed.

  (** lossless-equivalent specifications give equal objects, in whatever good states they are constructed *)
  Theorem lossless_specs_equal sa sb s1 s2 n1 n2 st1 st2 v1 v2 r1 r2 :
    good sa -> good sb -> closed s1 = true -> closed s2 = true ->
    crs_new sa s1 n1 = Ok (st1, v1) -> crs_new sb s2 n2 = Ok (st2, v2) ->
    spec_srs W s1 = Some r1 -> spec_srs W s2 = Some r2 -> peq r1 r2 = true ->
    crs_eq W v1 v2 = true /\ crs_eq W (to_epsg W v1) v2 = true /\ crs_eq W v1 (to_epsg W v2) = true /\
    crs_eq W (to_epsg W v1) (to_epsg W v2) = true.
  Proof.
    intros Ga Gb C1 C2 H1 H2 S1 S2 P.
    destruct (crs_new_closed_peq _ _ _ _ _ _ Ga H1 C1 S1) as (O1 & P1).
    destruct (crs_new_closed_peq _ _ _ _ _ _ Gb H2 C2 S2) as (O2 & P2).
    assert (Pv : peq (c_srs v1) (c_srs v2) = true).
    { apply (peq_trans r1); auto. apply (peq_trans r2); auto. apply peq_sym; auto. }
    destruct (to_epsg_ok _ O1) as (O1' & _). destruct (to_epsg_ok _ O2) as (O2' & _).
    destruct (to_epsg_same W v1) as (_ & E1 & _). destruct (to_epsg_same W v2) as (_ & E2 & _).
    destruct O1, O2.
    repeat split; apply crs_eq_of_peq; auto; rewrite ?E1, ?E2; auto.
  Qed.

  (** copies and pickled copies of a live instance are equal to it *)
  Theorem copy_and_pickle_equal st i v nid st1 v' s :
    good st -> get_var st i = Ok v -> s = SpCrs i \/ s = SpPickle i ->
    crs_new st s nid = Ok (st1, v') ->
    crs_eq W v' v = true /\ crs_eq W v v' = true.
  Proof.
    intros G Hv Hs H.
    pose proof (get_var_In _ _ _ Hv) as Hin. destruct (g_vars _ G _ Hin) as (Ov & Estr).
    assert (P : peq (c_srs v') (c_srs v) = true).
    { destruct (crs_new_good _ _ _ _ _ G H) as (_ & _ & [(j & E & Hj)|(sp & stm & L & P)]).
      - destruct Hs as [-> | ->]; inversion E; subst j. rewrite Hv in Hj. inversion Hj. apply peq_refl.
      - destruct Hs as [-> | ->]; [inversion L as [| |? ? ? ? [E|E]| |]; discriminate E|].
        (* the pickle carries [_str], which pyproj reads as an object equal to the original *)
        apply link_pickle in L. destruct L as (v0 & Hv0 & -> & _). rewrite Hv in Hv0. inversion Hv0; subst v0.
        destruct (fresh_str_valid _ (var_valid _ _ G Hin)) as (V & Pf). rewrite <- Estr in V, Pf.
        apply (peq_trans (c_str v)); auto. }
    destruct (crs_new_good _ _ _ _ _ G H) as (_ & (O' & _) & _).
    split; apply crs_eq_of_peq; auto. apply peq_sym, P.
  Qed.

  (** a pickled copy keeps the string form (hence hash and token) when no aliasing key is cached *)
  Theorem pickle_str_partial st i v nid st1 v' :
    good st -> get_var st i = Ok v -> crs_new st (SpPickle i) nid = Ok (st1, v') ->
    coherent_for st (make_key W (MStr (c_str v))) (c_str v) ->
    c_str v' = c_str v.
  Proof.
    intros G Hv H Co. apply crs_new_link in H. destruct H as [(j & E & _)|(sp & stm & e & L & M & ->)]; [discriminate|].
    apply link_pickle in L. destruct L as (v0 & Hv0 & -> & ->). rewrite Hv in Hv0. inversion Hv0; subst v0.
    pose proof (get_var_In _ _ _ Hv) as Hin. destruct (g_vars _ G _ Hin) as (_ & Estr).
    destruct (fresh_str_valid _ (var_valid _ _ G Hin)) as (V & _).
    apply make_crs_cases in M. destruct M as [(-> & k' & Hk & Hkk)|(srs & id & stm & S & _ & -> & _)].
    - simpl. eapply Co; eauto.
    - simpl. rewrite norm_entry_str. simpl in S. rewrite Estr in S |- *. rewrite V in S. inversion S; subst srs.
      apply fresh_str_idem.
  Qed.
End History.
