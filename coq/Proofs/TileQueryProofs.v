(** Lemmas for property C12 (tile queries and dependency graphs are complete).
    One axis of Model.TileQuery is one axis of Model.Tiles without the int64 offsets: the
    tile starts are the boundaries [regB] / [varB] of TilesProofs, and [ax_range],
    [ax_tile0], [ax_locate] are convertible to [tiles_slice], [tile_sz 0] and
    [searchsorted_right]; the arithmetic of one axis is taken from there.
    Names: [ax_count] / [ax_off] / [ax_base] / [ax_range] / [ax_locate] here are what
    TilesProofs calls [ax_S] / [ax_B] / [ax_N] / [ax_get] at an int index / [ax_loc] (count,
    boundary, extent, range of a tile, tile of a pixel). *)
From Coq Require Import QArith Qround Qabs List Lia Lqa.
From OG Require Import Base.Result Base.QZ Base.QMinMax Base.ZRange Model.TileQuery.
From OG Require Base.ListSel Model.Tiles Proofs.TilesProofs.
Import ListNotations.
Open Scope Z_scope.

Definition zsum (l : list Z) : Z := fold_right Z.add 0 l.

Definition ax_ok (a : axis) : Prop :=
  match a with
  | AReg N n => 1 <= N /\ 1 <= n
  | AVar ch => Forall (fun c => 0 <= c) ch /\ 1 <= zsum ch
  end.

Definition ax_off (a : axis) (k : Z) : Z :=
  match a with
  | AReg N n => TilesProofs.regB N n k
  | AVar ch => TilesProofs.varB ch k
  end.

Lemma cumsum_length ch : forall acc, length (cumsum acc ch) = length ch.
Proof. exact (TilesProofs.length_psum ch). Qed.

Lemma znth_offsets ch k : 0 <= k <= ax_count (AVar ch) -> znth (offsets ch) k = ax_off (AVar ch) k.
Proof. exact (TilesProofs.nthZ_offsets ch k). Qed.

Lemma last_cumsum ch : forall acc, last (acc :: cumsum acc ch) 0 = acc + zsum ch.
Proof.
  induction ch as [|c r IH]; intros acc; [simpl; lia|].
  change (cumsum acc (c :: r)) with ((acc + c) :: cumsum (acc + c) r).
  change (last (acc :: (acc + c) :: cumsum (acc + c) r) 0) with (last ((acc + c) :: cumsum (acc + c) r) 0).
  rewrite IH. simpl. lia.
Qed.

Lemma var_base ch : ax_base (AVar ch) = zsum ch.
Proof. unfold ax_base, offsets. rewrite last_cumsum. lia. Qed.

Lemma count_pos a : ax_ok a -> 1 <= ax_count a.
Proof.
  destruct a as [N n | ch]; simpl.
  - intros [HN Hn]. pose proof (TilesProofs.cdiv_pos N n). unfold Tiles.cdiv in *. lia.
  - intros [Hc Hs]. destruct ch; simpl in *; lia.
Qed.

Lemma off_bounds a : ax_ok a -> ListSel.bounds (ax_count a) (ax_off a).
Proof.
  destruct a as [N n | ch]; intros [H1 H2].
  - intros i Hi. apply Z.lt_le_incl, TilesProofs.regB_strict; [lia | exact Hi].
  - exact (TilesProofs.varB_bounds ch H1).
Qed.

Lemma off_mono a j k : ax_ok a -> 0 <= j <= k -> k <= ax_count a -> ax_off a j <= ax_off a k.
Proof. intros H. apply ListSel.bounds_mono, off_bounds, H. Qed.

Lemma off_0 a : ax_ok a -> ax_off a 0 = 0.
Proof. destruct a as [N n | ch]; intros [H1 H2]; [apply TilesProofs.regB_0; lia | reflexivity]. Qed.

Lemma off_count a : ax_ok a -> ax_off a (ax_count a) = ax_base a.
Proof.
  destruct a as [N n | ch]; intros [H1 H2].
  - apply TilesProofs.regB_S. lia.
  - rewrite var_base. exact (TilesProofs.varB_len ch).
Qed.

Lemma off_range a k : ax_ok a -> 0 <= k <= ax_count a -> 0 <= ax_off a k <= ax_base a.
Proof.
  intros H Hk. pose proof (off_mono a 0 k H ltac:(lia) ltac:(lia)) as L.
  pose proof (off_mono a k (ax_count a) H ltac:(lia) ltac:(lia)) as U.
  rewrite (off_0 a H) in L. rewrite (off_count a H) in U. lia.
Qed.

Lemma range_off a k : ax_ok a -> 0 <= k < ax_count a ->
  ax_range a k = Ok (ax_off a k, ax_off a (k + 1)).
Proof.
  intros H Hk. unfold ax_range. replace (k <? 0) with false by lia.
  destruct a as [N n | ch]; destruct H as [H1 H2].
  - change (Tiles.tiles_slice (k, k + 1) N n = Ok (ax_off (AReg N n) k, ax_off (AReg N n) (k + 1))).
    rewrite TilesProofs.tiles_slice_eq by lia. change (Tiles.cdiv N n) with (ax_count (AReg N n)).
    replace ((0 <=? k) && _ && _) with true by lia. reflexivity.
  - replace ((0 <=? k) && _) with true by lia. rewrite !znth_offsets by lia. reflexivity.
Qed.

Lemma range_inv {a k lo hi} : ax_ok a -> 0 <= k < ax_count a -> ax_range a k = Ok (lo, hi) ->
  lo = ax_off a k /\ hi = ax_off a (k + 1).
Proof. intros H Hk R. rewrite (range_off a k H Hk) in R. injection R as <- <-. auto. Qed.

(** the bounds check of [locate] *)
Lemma oob_false_iff p N : (p <? 0) || (p >=? N) = false <-> 0 <= p < N.
Proof. lia. Qed.

Lemma oob_true p N : ~ 0 <= p < N -> (p <? 0) || (p >=? N) = true.
Proof. lia. Qed.

Lemma locate_off a p : ax_ok a -> 0 <= p < ax_base a ->
  exists j, ax_locate a p = Ok j /\ 0 <= j < ax_count a /\ ax_off a j <= p < ax_off a (j + 1).
Proof.
  intros H Hp. unfold ax_locate. rewrite (proj2 (oob_false_iff p _) Hp).
  destruct a as [N n | ch]; destruct H as [H1 H2].
  - apply TilesProofs.reg_locate; [lia | exact Hp].
  - rewrite var_base in Hp. eexists. split; [reflexivity|].
    exact (TilesProofs.searchsorted_spec ch p H1 Hp).
Qed.

Lemma locate_ge a p j k : ax_ok a -> 0 <= j < ax_count a -> 0 <= k <= ax_count a ->
  ax_off a j <= p < ax_off a (j + 1) -> ax_off a k <= p -> k <= j.
Proof.
  intros H Hj Hk Hp Hkp. destruct (Z_le_gt_dec k j) as [L|G]; [exact L|].
  pose proof (off_mono a (j + 1) k H ltac:(lia) ltac:(lia)). lia.
Qed.

Lemma locate_le a p j k : ax_ok a -> 0 <= j < ax_count a -> 0 <= k < ax_count a ->
  ax_off a j <= p < ax_off a (j + 1) -> p < ax_off a (k + 1) -> j <= k.
Proof.
  intros H Hj Hk Hp Hkp. destruct (Z_le_gt_dec j k) as [L|G]; [exact L|].
  pose proof (off_mono a (k + 1) j H ltac:(lia) ltac:(lia)). lia.
Qed.

Lemma clamp_eq x lo up : lo <= up -> clamp x lo up = Ok (Z.max lo (Z.min x up)).
Proof.
  intros H. unfold clamp. replace (up <? lo) with false by lia. f_equal.
  destruct (Z.ltb_spec x lo); [lia|]. destruct (x >? up) eqn:E; lia.
Qed.

(** one axis of range_from_bbox: the located tiles bracket every non-empty tile
    that meets the open interval (a1, a2) *)
Lemma axis_query a N a1 a2 : ax_ok a -> ax_base a = N ->
  exists c1 c2 j1 j2,
    clamp_span a1 a2 N = Ok (c1, c2) /\ 0 <= c1 < N /\ 0 <= c2 < N /\
    ax_locate a c1 = Ok j1 /\ ax_locate a c2 = Ok j2 /\
    0 <= j1 < ax_count a /\ 0 <= j2 < ax_count a /\
    (forall k, 0 <= k < ax_count a -> ax_off a k < ax_off a (k + 1) ->
               (inject_Z (ax_off a k) < a2)%Q -> (a1 < inject_Z (ax_off a (k + 1)))%Q ->
               j1 <= k <= j2) /\
    ((0 < a2)%Q -> (a1 < inject_Z N)%Q -> forall k, j1 <= k <= j2 ->
               (inject_Z (ax_off a k) < a2)%Q /\ (a1 < inject_Z (ax_off a (k + 1)))%Q).
Proof.
  intros H HN.
  assert (N1 : 1 <= N).
  { rewrite <- HN. destruct a as [n0 n | ch].
    - simpl in *. lia.
    - rewrite var_base. simpl in H. lia. }
  unfold clamp_span.
  rewrite (clamp_eq (Qfloor a1) 0 (N - 1)) by lia.
  rewrite (clamp_eq (Qceiling a2) 1 N) by lia. cbn [bind].
  set (c1 := Z.max 0 (Z.min (Qfloor a1) (N - 1))).
  set (c2' := Z.max 1 (Z.min (Qceiling a2) N)).
  destruct (locate_off a c1 H ltac:(unfold c1; lia)) as (j1 & F1 & J1 & P1).
  destruct (locate_off a (c2' - 1) H ltac:(unfold c2'; lia)) as (j2 & F2 & J2 & P2).
  exists c1, (c2' - 1), j1, j2.
  split; [reflexivity|]. split; [unfold c1; lia|]. split; [unfold c2'; lia|]. split; [exact F1|]. split; [exact F2|].
  split; [exact J1|]. split; [exact J2|]. split.
  2:{ intros Pos Lt k Hk.
      assert (F0 : Qfloor a1 < N) by (apply Qfloor_lt_iff; exact Lt).
      assert (C0 : 0 < Qceiling a2) by (apply Qceiling_gt_iff; exact Pos).
      pose proof (off_mono a k j2 H ltac:(lia) ltac:(lia)) as M1.
      pose proof (off_mono a (j1 + 1) (k + 1) H ltac:(lia) ltac:(lia)) as M2.
      split.
      - apply Qceiling_gt_iff. unfold c2' in *. lia.
      - apply Qfloor_lt_iff. unfold c1 in *. lia. }
  intros k Hk Hne Hlo Hhi.
  pose proof (off_range a k H ltac:(lia)) as K0.
  pose proof (off_range a (k + 1) H ltac:(lia)) as K1. rewrite HN in K1.
  split.
  - (* j1 <= k : c1 < off (k+1) *)
    apply (locate_le a c1 j1 k H J1 Hk P1).
    assert (Hf : Qfloor a1 < ax_off a (k + 1)) by (apply Qfloor_lt_iff; exact Hhi).
    unfold c1. lia.
  - (* k <= j2 : off k <= c2 *)
    apply (locate_ge a (c2' - 1) j2 k H J2 ltac:(lia) P2).
    assert (Hc : ax_off a k < Qceiling a2) by (apply Qceiling_gt_iff; exact Hlo).
    unfold c2'. lia.
Qed.

Definition tiling_ok (t : tiling) (NY NX : Z) : Prop :=
  ax_ok (t_y t) /\ ax_ok (t_x t) /\ ax_base (t_y t) = NY /\ ax_base (t_x t) = NX.

Lemma locate_2d t y x jy jx : 0 <= y < ax_base (t_y t) -> 0 <= x < ax_base (t_x t) ->
  ax_locate (t_y t) y = Ok jy -> ax_locate (t_x t) x = Ok jx -> locate t y x = Ok (jy, jx).
Proof.
  intros Hy Hx Ey Ex. unfold locate.
  rewrite <- orb_assoc, (proj2 (oob_false_iff y _) Hy), (proj2 (oob_false_iff x _) Hx).
  simpl. rewrite Ey, Ex. reflexivity.
Qed.

Lemma locate_outside t y x : ~ (0 <= y < ax_base (t_y t) /\ 0 <= x < ax_base (t_x t)) ->
  locate t y x = Err EIndex.
Proof.
  intros Hn. unfold locate. rewrite <- orb_assoc.
  destruct ((y <? 0) || (y >=? ax_base (t_y t))) eqn:Ey; [reflexivity|].
  apply oob_false_iff in Ey. rewrite oob_true by tauto. reflexivity.
Qed.

Lemma tiles_from_pix_bbox_In t NY NX b yy xx :
  range_from_pix_bbox t NY NX b = Ok (yy, xx) ->
  exists l, tiles_from_pix_bbox t NY NX b = Ok l /\
            forall iy ix, In (iy, ix) l <-> (fst yy <= iy < snd yy /\ fst xx <= ix < snd xx).
Proof.
  intros E. unfold tiles_from_pix_bbox. rewrite E. cbn [bind]. eexists. split; [reflexivity|].
  intros iy ix. rewrite zproduct_In, !zrange_In. reflexivity.
Qed.

Lemma pix_query_complete t NY NX bx1 by1 bx2 by2 : tiling_ok t NY NX ->
  exists l, tiles_from_pix_bbox t NY NX (bx1, by1, bx2, by2) = Ok l /\
    (forall iy ix, In (iy, ix) l -> 0 <= iy < ax_count (t_y t) /\ 0 <= ix < ax_count (t_x t)) /\
    (forall iy ix ylo yhi xlo xhi,
        0 <= iy < ax_count (t_y t) -> 0 <= ix < ax_count (t_x t) ->
        ax_range (t_y t) iy = Ok (ylo, yhi) -> ax_range (t_x t) ix = Ok (xlo, xhi) ->
        ylo < yhi -> xlo < xhi ->
        (inject_Z xlo < bx2)%Q -> (bx1 < inject_Z xhi)%Q ->
        (inject_Z ylo < by2)%Q -> (by1 < inject_Z yhi)%Q ->
        In (iy, ix) l) /\
    ((0 < by2)%Q -> (by1 < inject_Z NY)%Q -> (0 < bx2)%Q -> (bx1 < inject_Z NX)%Q ->
     forall iy ix, In (iy, ix) l ->
        (inject_Z (ax_off (t_y t) iy) < by2)%Q /\ (by1 < inject_Z (ax_off (t_y t) (iy + 1)))%Q /\
        (inject_Z (ax_off (t_x t) ix) < bx2)%Q /\ (bx1 < inject_Z (ax_off (t_x t) (ix + 1)))%Q).
Proof.
  intros Ht. pose proof Ht as (Hy & Hx & By & Bx).
  destruct (axis_query (t_x t) NX bx1 bx2 Hx Bx) as (cx1 & cx2 & jx1 & jx2 & Ex & Rx1 & Rx2 & Lx1 & Lx2 & Jx1 & Jx2 & Cx & Sx).
  destruct (axis_query (t_y t) NY by1 by2 Hy By) as (cy1 & cy2 & jy1 & jy2 & Ey & Ry1 & Ry2 & Ly1 & Ly2 & Jy1 & Jy2 & Cy & Sy).
  assert (E : range_from_pix_bbox t NY NX (bx1, by1, bx2, by2) = Ok ((jy1, jy2 + 1), (jx1, jx2 + 1))).
  { unfold range_from_pix_bbox. rewrite Ex. cbn [bind]. rewrite Ey. cbn [bind].
    rewrite (locate_2d t cy1 cx1 jy1 jx1) by (try lia; assumption). cbn [bind].
    rewrite (locate_2d t cy2 cx2 jy2 jx2) by (try lia; assumption). reflexivity. }
  destruct (tiles_from_pix_bbox_In _ _ _ _ _ _ E) as (l & El & Hl). simpl in Hl.
  exists l. split; [exact El|]. split; [|split].
  - intros iy ix Hin. apply Hl in Hin. lia.
  - intros iy ix ylo yhi xlo xhi Hiy Hix Ry Rx Ny Nx A1 A2 A3 A4.
    destruct (range_inv Hy Hiy Ry) as [-> ->]. destruct (range_inv Hx Hix Rx) as [-> ->].
    apply Hl. specialize (Cy iy Hiy Ny A3 A4). specialize (Cx ix Hix Nx A1 A2). lia.
  - intros A1 A2 A3 A4 iy ix Hin. apply Hl in Hin.
    destruct (Sy A1 A2 iy ltac:(lia)), (Sx A3 A4 ix ltac:(lia)). auto.
Qed.

Lemma point_meets (lo hi : Z) (b1 b2 u : Q) : (b1 < u < b2)%Q -> (inject_Z lo < u < inject_Z hi)%Q ->
  lo < hi /\ (inject_Z lo < b2)%Q /\ (b1 < inject_Z hi)%Q.
Proof. intros U T. rewrite Zlt_Qlt. repeat split; lra. Qed.

Lemma tiles_query_spec {P : Type} {pb : P -> res q4} {dj : P -> Z * Z -> bool} {t NY NX q l} :
  tiles_query pb dj t NY NX q = Ok l ->
  exists b cand, pb q = Ok b /\ tiles_from_pix_bbox t NY NX b = Ok cand /\
                 forall idx, In idx l <-> (In idx cand /\ dj q idx = false).
Proof.
  unfold tiles_query. intros H.
  apply bind_ok in H. destruct H as (b & Eb & H).
  apply bind_ok in H. destruct H as (cand & Ec & H). inversion H; subst l.
  exists b, cand. split; [exact Eb|]. split; [exact Ec|].
  intros idx. rewrite filter_In, negb_true_iff. reflexivity.
Qed.

Lemma tiles_query_ok {P : Type} (pb : P -> res q4) (dj : P -> Z * Z -> bool) t NY NX q b :
  tiling_ok t NY NX -> pb q = Ok b -> exists l, tiles_query pb dj t NY NX q = Ok l.
Proof.
  intros Ht Eb. unfold tiles_query. rewrite Eb. cbn [bind].
  destruct b as [[[bx1 by1] bx2] by2].
  destruct (pix_query_complete t NY NX bx1 by1 bx2 by2 Ht) as (l & El & _).
  rewrite El. cbn [bind]. eauto.
Qed.

Lemma res_map_In {A B} (f : A -> res B) l bs : res_map f l = Ok bs ->
  forall b, In b bs <-> exists a, In a l /\ f a = Ok b.
Proof. exact (mapM_In f l bs). Qed.

Definition fmap (s t : Q) (x : Z) : Q := (s * inject_Z x + t)%Q.

(** mapped interval of a destination tile along one axis *)
Definition mlo (s t : Q) (x0 x1 : Z) : Q := qmin (fmap s t x0) (fmap s t x1).
Definition mhi (s t : Q) (x0 x1 : Z) : Q := qmax (fmap s t x0) (fmap s t x1).

Lemma bbox_round_transform A x0 y0 x1 y1 :
  bbox_round (bbox_transform A (x0, y0, x1, y1)) =
  (Qfloor (mlo (a_sx A) (a_tx A) x0 x1), Qfloor (mlo (a_sy A) (a_ty A) y0 y1),
   Qceiling (mhi (a_sx A) (a_tx A) x0 x1), Qceiling (mhi (a_sy A) (a_ty A) y0 y1)).
Proof.
  unfold bbox_round, bbox_transform. rewrite min4_aabb, min4_abab, max4_aabb, max4_abab. reflexivity.
Qed.

(** the guard of the F11 repair *)
Lemma skip_iff bl bb br bt NX NY :
  (br <=? 0) || (bl >=? NX) || (bt <=? 0) || (bb >=? NY) = true <->
  br <= 0 \/ NX <= bl \/ bt <= 0 \/ NY <= bb.
Proof. lia. Qed.

Lemma pix_bbox_off t NY NX iy ix : tiling_ok t NY NX ->
  0 <= iy < ax_count (t_y t) -> 0 <= ix < ax_count (t_x t) ->
  pix_bbox t (iy, ix) =
  Ok (ax_off (t_x t) ix, ax_off (t_y t) iy, ax_off (t_x t) (ix + 1), ax_off (t_y t) (iy + 1)).
Proof.
  intros (Hy & Hx & _) Hiy Hix. unfold pix_bbox.
  rewrite (range_off _ _ Hy Hiy). cbn [bind]. rewrite (range_off _ _ Hx Hix). reflexivity.
Qed.

Lemma linear_tile_complete dst src NYd NXd NYs NXs A dy dx :
  tiling_ok dst NYd NXd -> tiling_ok src NYs NXs ->
  0 <= dy < ax_count (t_y dst) -> 0 <= dx < ax_count (t_x dst) ->
  let xlo := mlo (a_sx A) (a_tx A) (ax_off (t_x dst) dx) (ax_off (t_x dst) (dx + 1)) in
  let xhi := mhi (a_sx A) (a_tx A) (ax_off (t_x dst) dx) (ax_off (t_x dst) (dx + 1)) in
  let ylo := mlo (a_sy A) (a_ty A) (ax_off (t_y dst) dy) (ax_off (t_y dst) (dy + 1)) in
  let yhi := mhi (a_sy A) (a_ty A) (ax_off (t_y dst) dy) (ax_off (t_y dst) (dy + 1)) in
  exists l, linear_deps_tile dst src NYs NXs A (dy, dx) = Ok l /\
    (forall sy sx, In (sy, sx) l -> 0 <= sy < ax_count (t_y src) /\ 0 <= sx < ax_count (t_x src)) /\
    (forall sy sx,
        0 <= sy < ax_count (t_y src) -> 0 <= sx < ax_count (t_x src) ->
        ax_off (t_y src) sy < ax_off (t_y src) (sy + 1) ->
        ax_off (t_x src) sx < ax_off (t_x src) (sx + 1) ->
        (inject_Z (ax_off (t_x src) sx) < xhi)%Q -> (xlo < inject_Z (ax_off (t_x src) (sx + 1)))%Q ->
        (inject_Z (ax_off (t_y src) sy) < yhi)%Q -> (ylo < inject_Z (ax_off (t_y src) (sy + 1)))%Q ->
        In (sy, sx) l) /\
    (forall sy sx, In (sy, sx) l ->
        (inject_Z (ax_off (t_x src) sx) < xhi + 1)%Q /\ (xlo - 1 < inject_Z (ax_off (t_x src) (sx + 1)))%Q /\
        (inject_Z (ax_off (t_y src) sy) < yhi + 1)%Q /\ (ylo - 1 < inject_Z (ax_off (t_y src) (sy + 1)))%Q).
Proof.
  intros Hd Hs Hdy Hdx xlo xhi ylo yhi. unfold linear_deps_tile.
  rewrite (pix_bbox_off dst NYd NXd dy dx Hd Hdy Hdx). cbn [bind].
  rewrite bbox_round_transform. cbv beta iota. fold xlo xhi ylo yhi.
  destruct (Qfloor_spec xlo) as (? & -> & Fx1 & Fx2). destruct (Qceiling_spec xhi) as (? & -> & Cx1 & Cx2).
  destruct (Qfloor_spec ylo) as (? & -> & Fy1 & Fy2). destruct (Qceiling_spec yhi) as (? & -> & Cy1 & Cy2).
  pose proof Hs as (Hsy & Hsx & Bsy & Bsx).
  destruct ((Qceiling xhi <=? 0) || (Qfloor xlo >=? NXs) || (Qceiling yhi <=? 0) || (Qfloor ylo >=? NYs)) eqn:Skip.
  - apply skip_iff in Skip.
    exists []. split; [reflexivity|]. split; [intros ? ? []|]. split; [|intros ? ? []].
    intros sy sx Hsy' Hsx' Ny Nx X1 X2 Y1 Y2. exfalso.
    pose proof (off_range _ sx Hsx ltac:(lia)). pose proof (off_range _ sy Hsy ltac:(lia)).
    pose proof (off_range _ (sx + 1) Hsx ltac:(lia)). pose proof (off_range _ (sy + 1) Hsy ltac:(lia)).
    rewrite Bsx in *. rewrite Bsy in *.
    apply Qceiling_gt_iff in X1, Y1. apply Qfloor_lt_iff in X2, Y2. lia.
  - apply not_true_iff_false in Skip. rewrite skip_iff in Skip. unfold z4_to_q4.
    destruct (pix_query_complete src NYs NXs (inject_Z (Qfloor xlo)) (inject_Z (Qfloor ylo))
                (inject_Z (Qceiling xhi)) (inject_Z (Qceiling yhi)) Hs) as (l & El & Hin & Hl & Sl).
    exists l. split; [exact El|]. split; [exact Hin|]. split.
    + intros sy sx Hsy' Hsx' Ny Nx X1 X2 Y1 Y2.
      apply (Hl sy sx _ _ _ _ Hsy' Hsx' (range_off _ _ Hsy Hsy') (range_off _ _ Hsx Hsx') Ny Nx); lra.
    + assert (K : (0 < inject_Z (Qceiling yhi) /\ inject_Z (Qfloor ylo) < inject_Z NYs /\
                   0 < inject_Z (Qceiling xhi) /\ inject_Z (Qfloor xlo) < inject_Z NXs)%Q).
      { change 0%Q with (inject_Z 0). rewrite <- !Zlt_Qlt. lia. }
      destruct K as (K1 & K2 & K3 & K4). intros sy sx Hl'.
      destruct (Sl K1 K2 K3 K4 sy sx Hl') as (S1 & S2 & S3 & S4). repeat split; lra.
Qed.

Lemma linear_tile_outside dst src NYd NXd NYs NXs A dy dx :
  tiling_ok dst NYd NXd -> 0 <= dy < ax_count (t_y dst) -> 0 <= dx < ax_count (t_x dst) ->
  ((mhi (a_sx A) (a_tx A) (ax_off (t_x dst) dx) (ax_off (t_x dst) (dx + 1)) <= 0)%Q \/
   (inject_Z NXs <= mlo (a_sx A) (a_tx A) (ax_off (t_x dst) dx) (ax_off (t_x dst) (dx + 1)))%Q \/
   (mhi (a_sy A) (a_ty A) (ax_off (t_y dst) dy) (ax_off (t_y dst) (dy + 1)) <= 0)%Q \/
   (inject_Z NYs <= mlo (a_sy A) (a_ty A) (ax_off (t_y dst) dy) (ax_off (t_y dst) (dy + 1)))%Q) ->
  linear_deps_tile dst src NYs NXs A (dy, dx) = Ok [].
Proof.
  intros Hd Hdy Hdx Out. unfold linear_deps_tile.
  rewrite (pix_bbox_off dst NYd NXd dy dx Hd Hdy Hdx). cbn [bind].
  rewrite bbox_round_transform. cbv beta iota.
  rewrite (proj2 (skip_iff _ _ _ _ _ _)); [reflexivity|].
  rewrite !Qceiling_le_iff, !Qfloor_ge_iff. exact Out.
Qed.

Lemma res_map_graph {F : Z * Z -> res (list (Z * Z))} {l g} :
  res_map (fun idx => s <- F idx ;; Ok (idx, s)) l = Ok g ->
  map fst g = l /\ (forall d s, In (d, s) g -> In d l /\ F d = Ok s) /\
  (forall d, In d l -> exists s, In (d, s) g /\ F d = Ok s).
Proof.
  revert g. induction l as [|a l IH]; intros g H; simpl in H.
  - inversion H; subst. simpl. repeat split; try contradiction.
  - apply bind_ok in H. destruct H as ([a' s0] & E0 & H).
    apply bind_ok in E0. destruct E0 as (s1 & E1 & E0). inversion E0; subst a' s0.
    apply bind_ok in H. destruct H as (g0 & Eg & H). inversion H; subst g.
    destruct (IH g0 Eg) as (M & I1 & I2). simpl. split; [f_equal; exact M|]. split.
    + intros d s [E | Hin]; [inversion E; subst; auto | destruct (I1 d s Hin); auto].
    + intros d [<- | Hin]; [exists s1; auto | destruct (I2 d Hin) as (s & ? & ?); exists s; auto].
Qed.

Lemma all_tiles_In t iy ix :
  In (iy, ix) (all_tiles t) <-> 0 <= iy < ax_count (t_y t) /\ 0 <= ix < ax_count (t_x t).
Proof. unfold all_tiles. rewrite zproduct_In, !zrange_In. reflexivity. Qed.

Lemma linear_graph_complete dst src NYd NXd NYs NXs A g dy dx sy sx dylo dyhi dxlo dxhi sylo syhi sxlo sxhi :
  tiling_ok dst NYd NXd -> tiling_ok src NYs NXs ->
  grid_intersect_linear dst src NYs NXs A = Ok g ->
  0 <= dy < ax_count (t_y dst) -> 0 <= dx < ax_count (t_x dst) ->
  0 <= sy < ax_count (t_y src) -> 0 <= sx < ax_count (t_x src) ->
  ax_range (t_y dst) dy = Ok (dylo, dyhi) -> ax_range (t_x dst) dx = Ok (dxlo, dxhi) ->
  ax_range (t_y src) sy = Ok (sylo, syhi) -> ax_range (t_x src) sx = Ok (sxlo, sxhi) ->
  sylo < syhi -> sxlo < sxhi ->
  (inject_Z sxlo < mhi (a_sx A) (a_tx A) dxlo dxhi)%Q -> (mlo (a_sx A) (a_tx A) dxlo dxhi < inject_Z sxhi)%Q ->
  (inject_Z sylo < mhi (a_sy A) (a_ty A) dylo dyhi)%Q -> (mlo (a_sy A) (a_ty A) dylo dyhi < inject_Z syhi)%Q ->
  edge g (dy, dx) (sy, sx).
Proof.
  intros Hd Hs Eg Hdy Hdx Hsy Hsx R1 R2 R3 R4 Ny Nx X1 X2 Y1 Y2.
  pose proof Hd as (Hdy' & Hdx' & _). pose proof Hs as (Hsy' & Hsx' & _).
  destruct (range_inv Hdy' Hdy R1) as [-> ->]. destruct (range_inv Hdx' Hdx R2) as [-> ->].
  destruct (range_inv Hsy' Hsy R3) as [-> ->]. destruct (range_inv Hsx' Hsx R4) as [-> ->].
  destruct (res_map_graph Eg) as (_ & _ & I2).
  destruct (I2 (dy, dx)) as (l & Hin & El); [apply all_tiles_In; auto|].
  destruct (linear_tile_complete dst src NYd NXd NYs NXs A dy dx Hd Hs Hdy Hdx) as (l' & El' & _ & C & _).
  rewrite El in El'. inversion El'; subst l'.
  exists l. split; [exact Hin|]. apply C; assumption.
Qed.

Lemma linear_graph_near dst src NYd NXd NYs NXs A g dy dx sy sx l dylo dyhi dxlo dxhi :
  tiling_ok dst NYd NXd -> tiling_ok src NYs NXs ->
  grid_intersect_linear dst src NYs NXs A = Ok g -> In ((dy, dx), l) g -> In (sy, sx) l ->
  ax_range (t_y dst) dy = Ok (dylo, dyhi) -> ax_range (t_x dst) dx = Ok (dxlo, dxhi) ->
  0 <= dy < ax_count (t_y dst) /\ 0 <= dx < ax_count (t_x dst) /\
  0 <= sy < ax_count (t_y src) /\ 0 <= sx < ax_count (t_x src) /\
  exists sylo syhi sxlo sxhi,
    ax_range (t_y src) sy = Ok (sylo, syhi) /\ ax_range (t_x src) sx = Ok (sxlo, sxhi) /\
    (inject_Z sxlo < mhi (a_sx A) (a_tx A) dxlo dxhi + 1)%Q /\ (mlo (a_sx A) (a_tx A) dxlo dxhi - 1 < inject_Z sxhi)%Q /\
    (inject_Z sylo < mhi (a_sy A) (a_ty A) dylo dyhi + 1)%Q /\ (mlo (a_sy A) (a_ty A) dylo dyhi - 1 < inject_Z syhi)%Q.
Proof.
  intros Hd Hs Eg Hin Hl R1 R2.
  destruct (res_map_graph Eg) as (_ & I1 & _).
  destruct (I1 _ _ Hin) as [Hall El]. apply all_tiles_In in Hall. destruct Hall as [Hdy Hdx].
  destruct (linear_tile_complete dst src NYd NXd NYs NXs A dy dx Hd Hs Hdy Hdx) as (l' & El' & V & _ & S).
  rewrite El in El'. inversion El'; subst l'.
  destruct (V _ _ Hl) as [Hsy Hsx].
  pose proof Hd as (Hdy' & Hdx' & _). pose proof Hs as (Hsy' & Hsx' & _).
  destruct (range_inv Hdy' Hdy R1) as [-> ->]. destruct (range_inv Hdx' Hdx R2) as [-> ->].
  repeat split; try lia.
  exists (ax_off (t_y src) sy), (ax_off (t_y src) (sy + 1)), (ax_off (t_x src) sx), (ax_off (t_x src) (sx + 1)).
  split; [apply range_off; assumption|]. split; [apply range_off; assumption|]. apply (S _ _ Hl).
Qed.

Lemma affine_between s t (lo hi : Z) (w : Q) : (inject_Z lo <= w <= inject_Z hi)%Q ->
  (mlo s t lo hi <= s * w + t <= mhi s t lo hi)%Q.
Proof.
  intros Hw. unfold mlo, mhi, fmap.
  assert (M : (s * inject_Z lo <= s * w <= s * inject_Z hi \/ s * inject_Z hi <= s * w <= s * inject_Z lo)%Q).
  { destruct (Qlt_le_dec s 0); [right | left]; nra. }
  destruct (qmin_lb (s * inject_Z lo + t) (s * inject_Z hi + t)), (qmax_ub (s * inject_Z lo + t) (s * inject_Z hi + t)).
  destruct M; lra.
Qed.

Lemma tile_image_inside s t lo hi x0 x1 : lo <= x0 <= hi -> lo <= x1 <= hi ->
  (mlo s t lo hi <= mlo s t x0 x1)%Q /\ (mhi s t x0 x1 <= mhi s t lo hi)%Q.
Proof.
  intros H0 H1.
  assert (B : forall x, lo <= x <= hi -> (mlo s t lo hi <= fmap s t x <= mhi s t lo hi)%Q).
  { intros x Hx. apply affine_between. rewrite <- !Zle_Qle. exact Hx. }
  split; [apply qmin_glb | apply qmax_lub]; apply B; assumption.
Qed.

Lemma point_overlap s t (dlo dhi slo shi : Z) (u : Q) :
  (inject_Z dlo <= u <= inject_Z dhi)%Q -> (inject_Z slo < s * u + t < inject_Z shi)%Q ->
  slo < shi /\ (inject_Z slo < mhi s t dlo dhi)%Q /\ (mlo s t dlo dhi < inject_Z shi)%Q.
Proof.
  intros U M. pose proof (affine_between s t dlo dhi u U). rewrite Zlt_Qlt. repeat split; lra.
Qed.

Lemma linear_graph_nonoverlap dst src NYd NXd NYs NXs A g :
  tiling_ok dst NYd NXd -> grid_intersect_linear dst src NYs NXs A = Ok g ->
  ((mhi (a_sx A) (a_tx A) 0 NXd <= 0)%Q \/ (inject_Z NXs <= mlo (a_sx A) (a_tx A) 0 NXd)%Q \/
   (mhi (a_sy A) (a_ty A) 0 NYd <= 0)%Q \/ (inject_Z NYs <= mlo (a_sy A) (a_ty A) 0 NYd)%Q) ->
  forall d l, In (d, l) g -> l = [].
Proof.
  intros Hd Eg Out [dy dx] l Hin.
  destruct (res_map_graph Eg) as (_ & I1 & _).
  destruct (I1 _ _ Hin) as [Hall El]. apply all_tiles_In in Hall. destruct Hall as [Hdy Hdx].
  pose proof Hd as (Hy & Hx & By & Bx).
  destruct (tile_image_inside (a_sx A) (a_tx A) 0 NXd (ax_off (t_x dst) dx) (ax_off (t_x dst) (dx + 1)))
    as [Ix1 Ix2]; [rewrite <- Bx; apply off_range; [exact Hx | lia] .. |].
  destruct (tile_image_inside (a_sy A) (a_ty A) 0 NYd (ax_off (t_y dst) dy) (ax_off (t_y dst) (dy + 1)))
    as [Iy1 Iy2]; [rewrite <- By; apply off_range; [exact Hy | lia] .. |].
  rewrite (linear_tile_outside dst src NYd NXd NYs NXs A dy dx Hd Hdy Hdx) in El.
  - inversion El. reflexivity.
  - lra.
Qed.

Lemma qmax_close a b a' b' d : (Qabs (a - a') <= d)%Q -> (Qabs (b - b') <= d)%Q ->
  (qmax a' b' - d <= qmax a b)%Q /\ (qmin a b <= qmin a' b' + d)%Q.
Proof.
  intros Ha Hb. apply Qabs_Qle_condition in Ha. apply Qabs_Qle_condition in Hb.
  destruct (qmax_ub a b), (qmin_lb a b).
  assert (qmax a' b' <= qmax a b + d)%Q by (apply qmax_lub; lra).
  assert (qmin a b - d <= qmin a' b')%Q by (apply qmin_glb; lra).
  split; lra.
Qed.

(** one axis, [s], [t] of the affine used (snapped) and [s0], [t0] of the true map: overlap with
    the true image by more than [delta] is overlap with the image used *)
Lemma tol_overlap s t s0 t0 delta (dlo dhi slo shi : Z) :
  (forall x, x = dlo \/ x = dhi -> Qabs (fmap s t x - fmap s0 t0 x) <= delta)%Q ->
  (inject_Z slo + delta < mhi s0 t0 dlo dhi)%Q -> (mlo s0 t0 dlo dhi + delta < inject_Z shi)%Q ->
  (inject_Z slo < mhi s t dlo dhi)%Q /\ (mlo s t dlo dhi < inject_Z shi)%Q.
Proof.
  intros C X1 X2.
  destruct (qmax_close _ _ _ _ delta (C _ (or_introl eq_refl)) (C _ (or_intror eq_refl))) as [M1 M2].
  unfold mlo, mhi in *. split; lra.
Qed.

Section General.
  Context {P : Type}.
  Variables (dst_bbox : P -> res q4) (dst_disjoint : P -> Z * Z -> bool).
  Variables (src_bbox : Z * Z -> res q4) (src_disjoint : Z * Z -> Z * Z -> bool).
  Variables (dst src : tiling) (NYd NXd NYs NXs : Z).

  Let GI fp := grid_intersect_general fp dst_bbox dst_disjoint src_bbox src_disjoint dst src NYd NXd NYs NXs.

  Lemma general_spec fp g : GI (Some fp) = Ok g ->
    exists chunks, tiles_query dst_bbox dst_disjoint dst NYd NXd fp = Ok chunks /\
      map fst g = chunks /\
      forall d s, edge g d s <->
                  (In d chunks /\ exists l, tiles_query src_bbox src_disjoint src NYs NXs d = Ok l /\ In s l).
  Proof.
    unfold GI, grid_intersect_general. intros H.
    apply bind_ok in H. destruct H as (chunks & Ec & H).
    destruct (res_map_graph H) as (M & I1 & I2).
    exists chunks. split; [exact Ec|]. split; [exact M|].
    intros d s. split.
    - intros (l & Hin & Hs). destruct (I1 _ _ Hin) as [Hd El]. split; [exact Hd|]. exists l. auto.
    - intros (Hd & l & El & Hs). destruct (I2 d Hd) as (l' & Hin & El'). rewrite El in El'.
      inversion El'; subst l'. exists l. auto.
  Qed.

  Lemma general_edges fp g : GI (Some fp) = Ok g ->
    exists bd candd, dst_bbox fp = Ok bd /\ tiles_from_pix_bbox dst NYd NXd bd = Ok candd /\
      forall d s, edge g d s <->
        (In d candd /\ dst_disjoint fp d = false /\
         exists bs cands, src_bbox d = Ok bs /\ tiles_from_pix_bbox src NYs NXs bs = Ok cands /\
                          In s cands /\ src_disjoint d s = false).
  Proof.
    intros H. destruct (general_spec fp g H) as (chunks & Ec & _ & He).
    destruct (tiles_query_spec Ec) as (bd & candd & Eb & Ecand & Hc).
    exists bd, candd. split; [exact Eb|]. split; [exact Ecand|].
    intros d s. rewrite He, Hc. split.
    - intros [[H1 H2] (l & El & Hs)].
      destruct (tiles_query_spec El) as (bs & cands & Ebs & Ecs & Hl).
      apply Hl in Hs. destruct Hs. split; [exact H1|]. split; [exact H2|]. exists bs, cands. auto.
    - intros (H1 & H2 & bs & cands & Ebs & Ecs & Hs1 & Hs2). split; [auto|].
      unfold tiles_query. rewrite Ebs. cbn [bind]. rewrite Ecs. cbn [bind].
      eexists. split; [reflexivity|]. apply filter_In. rewrite Hs2. auto.
  Qed.

  Lemma general_ok fp :
    tiling_ok dst NYd NXd -> tiling_ok src NYs NXs ->
    (exists b, dst_bbox fp = Ok b) -> (forall d, exists b, src_bbox d = Ok b) ->
    exists g, GI (Some fp) = Ok g.
  Proof.
    intros Hd Hs [b Eb] Hsb. unfold GI, grid_intersect_general.
    destruct (tiles_query_ok dst_bbox dst_disjoint dst NYd NXd fp b Hd Eb) as [chunks Ec].
    rewrite Ec. cbn [bind]. apply mapM_ok. intros d _.
    destruct (Hsb d) as [bs Ebs].
    destruct (tiles_query_ok src_bbox src_disjoint src NYs NXs d bs Hs Ebs) as [l El].
    rewrite El. cbn [bind]. eauto.
  Qed.

  Lemma general_no_edges fp g : GI (Some fp) = Ok g ->
    (forall d s, src_disjoint d s = true) -> forall d s, ~ edge g d s.
  Proof.
    intros H Hd d s He. destruct (general_edges fp g H) as (bd & candd & _ & _ & Hc).
    apply Hc in He. destruct He as (_ & _ & bs & cands & _ & _ & _ & C). rewrite Hd in C. discriminate.
  Qed.

  Lemma general_empty fp g : GI (Some fp) = Ok g ->
    (forall d, dst_disjoint fp d = true) -> g = [].
  Proof.
    intros H Hd. destruct (general_spec fp g H) as (chunks & Ec & M & _).
    destruct (tiles_query_spec Ec) as (bd & candd & _ & _ & Hc).
    destruct chunks as [|c r].
    - destruct g; [reflexivity | discriminate].
    - exfalso. destruct (proj1 (Hc c) (or_introl eq_refl)) as [_ C]. rewrite Hd in C. discriminate.
  Qed.
End General.
