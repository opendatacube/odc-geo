(** Proofs about Model/CrsCache.v: what [_make_crs] and [CRS(spec)] do, case by
    case; the state invariant (everything the caches and the user reference is
    alive, transformer-cache ids are pinned by [_crs_cache]), its preservation
    by every operation, and the theorems on transformers. *)
From Coq Require Import ZArith List Bool.
From OG Require Import Base.Result Model.CrsCache.
From OG Require Base.Threads.
Import ListNotations.
Open Scope Z_scope.

(** [H : (a <- r ;; f a) = Ok b] becomes [Ha : r = Ok a] and [H : f a = Ok b] *)
Tactic Notation "inv_ok" hyp(H) "as" simple_intropattern(a) ident(Ha) :=
  apply bind_ok in H as (a & Ha & H).

Lemma existsb_eqb_In (x : Z) l : existsb (Z.eqb x) l = true <-> In x l.
Proof.
  rewrite existsb_exists; split.
  - intros (y & Hy & E). apply Z.eqb_eq in E. subst; auto.
  - intros H. exists x; split; auto. apply Z.eqb_refl.
Qed.

Lemma In_set_nth {A} (l : list A) i x y : In y (set_nth l i x) -> y = x \/ In y l.
Proof.
  revert i; induction l as [|a r IH]; intros i H; simpl in *; [tauto|].
  destruct i; simpl in H.
  - destruct H; auto.
  - destruct H as [H|H]; auto. apply IH in H. tauto.
Qed.

(** [set_nth] is [Base/Threads.upd] *)
Lemma nth_error_set_nth {A} (l : list A) i x y :
  nth_error l i = Some y -> nth_error (set_nth l i x) i = Some x.
Proof. exact (Threads.nth_error_upd_eq l i x y). Qed.

Lemma NoDup_map_filter {A} (f : A -> Z) (p : A -> bool) l :
  NoDup (map f l) -> NoDup (map f (filter p l)).
Proof.
  induction l as [|a r IH]; simpl; intros H; [constructor|].
  inversion H as [|? ? Hn Hr]; subst.
  destruct (p a); simpl; auto.
  constructor; auto. intros Hin. apply Hn.
  apply in_map_iff in Hin. destruct Hin as (y & E & Hy). apply filter_In in Hy.
  apply in_map_iff. exists y; tauto.
Qed.

Lemma NoDup_fst_fun {B} (l : list (Z * B)) i a b :
  NoDup (map fst l) -> In (i, a) l -> In (i, b) l -> a = b.
Proof.
  induction l as [|[j c] r IH]; simpl; intros Hn Ha Hb; [tauto|].
  inversion Hn as [|? ? Hnot Hr]; subst.
  destruct Ha as [Ha|Ha], Hb as [Hb|Hb].
  - congruence.
  - inversion Ha; subst. exfalso. apply Hnot. apply (in_map fst _ _ Hb).
  - inversion Hb; subst. exfalso. apply Hnot. apply (in_map fst _ _ Ha).
  - auto.
Qed.

Definition all_some {A} (P : A -> Prop) (l : list (option A)) : Prop := forall a, In (Some a) l -> P a.

Lemma all_some_snoc {A} (P : A -> Prop) l a : all_some P l -> P a -> all_some P (l ++ [Some a]).
Proof.
  intros H Ha b Hin. apply in_app_or in Hin. destruct Hin as [Hin|[Hin|[]]]; [apply H; exact Hin|].
  inversion Hin; subst; exact Ha.
Qed.

Lemma all_some_set {A} (P : A -> Prop) l i o :
  all_some P l -> match o with Some a => P a | None => True end -> all_some P (set_nth l i o).
Proof. intros H Ho a Hin. apply In_set_nth in Hin. destruct Hin as [<-|Hin]; auto. Qed.

Section Proofs.
  Variable W : oracle.

  Notation step := (step W).
  Notation run := (run W).
  Notation make_crs := (make_crs W).
  Notation crs_new := (crs_new W).
  Notation cache_get := (cache_get W).

  Lemma heap_has_iff h id : heap_has h id = true <-> In id (map fst h).
  Proof.
    unfold heap_has. rewrite existsb_exists, in_map_iff. split.
    - intros (p & Hp & E). apply Z.eqb_eq in E. eauto.
    - intros (p & E & Hp). exists p; split; auto. apply Z.eqb_eq; auto.
  Qed.

  Lemma alloc_ok st id srs st1 :
    alloc st id srs = Ok st1 ->
    st1 = with_heap st ((id, srs) :: heap st) /\ ~ In id (map fst (heap st)).
  Proof.
    unfold alloc. destruct (heap_has (heap st) id) eqn:E; intros [= <-].
    split; auto. intros Hin. apply heap_has_iff in Hin. congruence.
  Qed.

  Lemma alloc_live st id s srs : In (id, s) (heap st) -> alloc st id srs = Err (EAssert 1).
  Proof.
    intros H. unfold alloc. rewrite (proj2 (heap_has_iff (heap st) id) (in_map fst _ _ H)). reflexivity.
  Qed.

  Lemma get_var_In st i v : get_var st i = Ok v -> In (Some v) (vars st).
  Proof.
    unfold get_var. destruct (nth_error (vars st) i) as [[x|]|] eqn:E; intros [= <-].
    eapply nth_error_In; eauto.
  Qed.

  Lemma get_py_In st i p : get_py st i = Ok p -> In (Some p) (pys st).
  Proof.
    unfold get_py. destruct (nth_error (pys st) i) as [[x|]|] eqn:E; intros [= <-].
    eapply nth_error_In; eauto.
  Qed.

  Lemma cache_get_In c k e : cache_get c k = Some e -> exists k', In (k', e) c /\ key_eqb W k' k = true.
  Proof.
    induction c as [|[k' e'] r IH]; simpl; [discriminate|].
    destruct (key_eqb W k' k) eqn:E; intros H.
    - injection H as <-. exists k'; auto.
    - destruct (IH H) as (k'' & A & B). exists k''; auto.
  Qed.

  Lemma tk_eqb_eq a b : tk_eqb a b = true -> a = b.
  Proof.
    destruct a as [[i j] x], b as [[i' j'] x']. unfold tk_eqb; simpl.
    rewrite !andb_true_iff, !Z.eqb_eq, eqb_true_iff. intros ((-> & ->) & ->). reflexivity.
  Qed.

  Lemma tc_get_In c k d : tc_get c k = Some d -> In (k, d) c.
  Proof.
    induction c as [|[k' d'] r IH]; simpl; [discriminate|].
    destruct (tk_eqb k' k) eqn:E; intros H; [|right; auto].
    injection H as ->. apply tk_eqb_eq in E. subst. left; reflexivity.
  Qed.

  Lemma norm_entry_id id srs n : e_id (norm_entry W id srs n) = id /\ e_srs (norm_entry W id srs n) = srs.
  Proof. unfold norm_entry. destruct (o_is_epsg W (o_upper W srs)); simpl; auto. Qed.

  Lemma norm_entry_str id srs n : e_str (norm_entry W id srs n) = fresh_str W srs.
  Proof. unfold norm_entry, fresh_str. destruct (o_is_epsg W (o_upper W srs)); reflexivity. Qed.

  Lemma fresh_str_epsg srs : o_is_epsg W (o_upper W srs) = true -> fresh_str W srs = o_upper W srs.
  Proof. unfold fresh_str. intros ->. reflexivity. Qed.

  Lemma fresh_str_other srs : o_is_epsg W (o_upper W srs) = false -> fresh_str W srs = srs.
  Proof. unfold fresh_str. intros ->. reflexivity. Qed.

  Lemma to_epsg_same v :
    c_id (to_epsg W v) = c_id v /\ c_srs (to_epsg W v) = c_srs v /\ c_str (to_epsg W v) = c_str v.
  Proof. unfold to_epsg. destruct (oz_eqb (c_epsg v) (Some 0)); auto. Qed.

  Lemma make_key_obj sp i s : make_key W sp = KObj i s -> sp = MObj i s.
  Proof.
    destruct sp as [t|n|j r]; simpl; [destruct (o_is_epsg W (o_upper W t))| |]; intros E; inversion E; reflexivity.
  Qed.

  (** the srs of the object [_make_crs] is asked for, and the [_epsg] it starts from *)
  Definition sp_srs (sp : mspec) : option text :=
    match sp with MStr t => o_prep W t | MInt n => o_prep W (o_epsg_text W n) | MObj _ s => Some s end.
  Definition sp_epsg (sp : mspec) : Z := match sp with MInt n => n | _ => 0 end.

  Lemma make_crs_cases st sp nid st1 e :
    make_crs st sp nid = Ok (st1, e) ->
    (st1 = st /\ exists k', In (k', e) (cache st) /\ key_eqb W k' (make_key W sp) = true) \/
    (exists srs id stm,
       sp_srs sp = Some srs /\
       (sp = MObj id srs /\ stm = st \/ (forall i s, sp <> MObj i s) /\ id = nid /\ alloc st nid srs = Ok stm) /\
       e = norm_entry W id srs (sp_epsg sp) /\
       st1 = with_cache stm ((make_key W sp, e) :: cache stm)).
  Proof.
    intros H. unfold CrsCache.make_crs in H.
    destruct (cache_get (cache st) (make_key W sp)) as [e0|] eqn:G.
    - injection H as <- <-. left. split; [reflexivity|]. apply cache_get_In; exact G.
    - right. destruct sp as [t|n|id srs]; simpl in H |- *.
      + destruct (o_prep W t) as [srs|]; [|discriminate]. inv_ok H as stm A. injection H as <- <-.
        exists srs, nid, stm. repeat split; auto. right. repeat split; auto. discriminate.
      + destruct (o_prep W (o_epsg_text W n)) as [srs|]; [|discriminate]. inv_ok H as stm A. injection H as <- <-.
        exists srs, nid, stm. repeat split; auto. right. repeat split; auto. discriminate.
      + injection H as <- <-. exists srs, id, st. repeat split; auto.
  Qed.

  (** how [CRS(spec)] reaches [_make_crs]: with which argument, and in which state *)
  Inductive link (st : state) (nid : Z) : spec -> mspec -> state -> Prop :=
  | L_int n : link st nid (SpInt n) (MInt n) st
  | L_str t : link st nid (SpStr t) (MStr t) st
  | L_new s t srs stm : s = SpDict t \/ s = SpPyNew t -> o_prep W t = Some srs -> alloc st nid srs = Ok stm ->
                        link st nid s (MObj nid srs) stm
  | L_py i p : get_py st i = Ok p -> link st nid (SpPy i) (MObj (fst p) (snd p)) st
  | L_pickle i v0 : get_var st i = Ok v0 -> link st nid (SpPickle i) (MStr (c_str v0)) st.

  Lemma crs_of_make stm sp nid st1 v :
    (r <- make_crs stm sp nid ;; Ok (fst r, crs_of_entry (snd r))) = Ok (st1, v) ->
    exists e, make_crs stm sp nid = Ok (st1, e) /\ v = crs_of_entry e.
  Proof. intros H. inv_ok H as [s2 e] M. injection H as <- <-. eauto. Qed.

  Lemma crs_new_link st s nid st1 v :
    crs_new st s nid = Ok (st1, v) ->
    (exists i, s = SpCrs i /\ st1 = st /\ get_var st i = Ok v) \/
    (exists sp stm e, link st nid s sp stm /\ make_crs stm sp nid = Ok (st1, e) /\ v = crs_of_entry e).
  Proof.
    intros H. destruct s as [n|t|t|t|i|i|i]; simpl in H.
    - right. apply crs_of_make in H. destruct H as (e & M & E). exists (MInt n), st, e. repeat split; auto. constructor.
    - right. apply crs_of_make in H. destruct H as (e & M & E). exists (MStr t), st, e. repeat split; auto. constructor.
    - right. destruct (o_prep W t) as [srs|] eqn:P; [|discriminate]. inv_ok H as stm A.
      apply crs_of_make in H. destruct H as (e & M & E). exists (MObj nid srs), stm, e. repeat split; auto.
      eapply L_new; eauto.
    - right. destruct (o_prep W t) as [srs|] eqn:P; [|discriminate]. inv_ok H as stm A.
      apply crs_of_make in H. destruct H as (e & M & E). exists (MObj nid srs), stm, e. repeat split; auto.
      eapply L_new; eauto.
    - right. inv_ok H as p G. apply crs_of_make in H. destruct H as (e & M & E).
      exists (MObj (fst p) (snd p)), st, e. repeat split; auto. constructor; auto.
    - left. inv_ok H as v0 G. injection H as <- <-. eauto.
    - right. inv_ok H as v0 G. apply crs_of_make in H. destruct H as (e & M & E).
      exists (MStr (c_str v0)), st, e. repeat split; auto. constructor; auto.
  Qed.

  Lemma link_cache st nid s sp stm : link st nid s sp stm -> cache stm = cache st.
  Proof.
    intros L. destruct L as [| | s t srs stm _ _ A | |]; auto.
    apply alloc_ok in A. destruct A as (-> & _). reflexivity.
  Qed.

  Lemma In_sweep st p : In p (heap (sweep st)) <-> In p (heap st) /\ In (fst p) (roots st).
  Proof. unfold sweep, is_root; simpl. rewrite filter_In, existsb_eqb_In. reflexivity. Qed.

  Lemma sweep_sub st p : In p (heap (sweep st)) -> In p (heap st).
  Proof. intros H. apply In_sweep in H. apply H. Qed.

  Lemma root_cache st k e : In (k, e) (cache st) -> incl (e_id e :: key_ids k) (roots st).
  Proof. intros H i Hi. apply in_or_app; left. apply in_flat_map. exists (k, e); auto. Qed.

  Lemma root_var st v : In (Some v) (vars st) -> In (c_id v) (roots st).
  Proof.
    intros H. apply in_or_app; right. apply in_or_app; left. apply in_flat_map. exists (Some v); simpl; auto.
  Qed.

  Lemma root_py st p : In (Some p) (pys st) -> In (fst p) (roots st).
  Proof.
    intros H. apply in_or_app; right. apply in_or_app; right. apply in_flat_map. exists (Some p); simpl; auto.
  Qed.

  Definition pinned (st : state) (id : Z) : Prop := exists k e, In (k, e) (cache st) /\ e_id e = id.

  Definition good_var (st : state) (v : crsv) : Prop := In (c_id v, c_srs v) (heap st) /\ pinned st (c_id v).

  Record inv (st : state) : Prop := mkInv {
    inv_nodup : NoDup (map fst (heap st));
    inv_cache : forall k e, In (k, e) (cache st) ->
                  In (e_id e, e_srs e) (heap st) /\ (forall i s, k = KObj i s -> In (i, s) (heap st));
    inv_vars : forall v, In (Some v) (vars st) -> good_var st v;
    inv_pys : forall p, In (Some p) (pys st) -> In p (heap st);
    inv_tc : forall i j xy d, In ((i, j, xy), d) (tcache st) ->
               snd d = xy /\ In (i, fst (fst d)) (heap st) /\ In (j, snd (fst d)) (heap st) /\
               pinned st i /\ pinned st j
  }.

  Lemma inv_init : inv init.
  Proof. constructor; simpl; try tauto; try constructor. Qed.

  Lemma root_pinned st id : pinned st id -> In id (roots st).
  Proof. intros (k & e & H & <-). apply (root_cache st k e H). left; reflexivity. Qed.

  Lemma inv_sweep st : inv st -> inv (sweep st).
  Proof.
    intros [Hn Hc Hv Hp Ht]. constructor.
    - unfold sweep; simpl. apply NoDup_map_filter; auto.
    - intros k e H. change (cache (sweep st)) with (cache st) in H.
      destruct (Hc k e H) as (A & B). split.
      + apply In_sweep. split; auto. apply (root_cache st k e H). left; reflexivity.
      + intros i s ->. apply In_sweep. split; auto. apply (root_cache st _ e H). right; left; reflexivity.
    - intros v H. change (vars (sweep st)) with (vars st) in H.
      destruct (Hv v H) as (A & B). split; auto.
      apply In_sweep. split; auto. apply root_var; auto.
    - intros p H. change (pys (sweep st)) with (pys st) in H.
      apply In_sweep. split; auto. apply root_py; auto.
    - intros i j xy d H. change (tcache (sweep st)) with (tcache st) in H.
      destruct (Ht i j xy d H) as (A & B & C & D & E).
      repeat split; auto; apply In_sweep; split; auto; apply root_pinned; auto.
  Qed.

  Lemma inv_with_vars st vs : inv st -> all_some (good_var st) vs -> inv (with_vars st vs).
  Proof. intros [Hn Hc Hv Hp Ht] H. constructor; simpl; auto. Qed.

  Lemma inv_with_pys st ps : inv st -> all_some (fun p => In p (heap st)) ps -> inv (with_pys st ps).
  Proof. intros [Hn Hc Hv Hp Ht] H. constructor; simpl; auto. Qed.

  Definition ext (st st1 : state) : Prop :=
    (forall p, In p (heap st) -> In p (heap st1)) /\ (forall x, In x (cache st) -> In x (cache st1)).

  Lemma ext_refl st : ext st st.
  Proof. split; auto. Qed.

  Lemma ext_trans a b c : ext a b -> ext b c -> ext a c.
  Proof. intros (A1 & A2) (B1 & B2). split; auto. Qed.

  Lemma pinned_ext st st1 id : ext st st1 -> pinned st id -> pinned st1 id.
  Proof. intros (_ & Hc) (k & e & H & E). exists k, e; auto. Qed.

  Lemma inv_alloc st id srs st1 : inv st -> alloc st id srs = Ok st1 -> inv st1 /\ ext st st1 /\ In (id, srs) (heap st1).
  Proof.
    intros [Hnd Hc Hv Hp Ht] H. apply alloc_ok in H. destruct H as (-> & Hn).
    split; [|split].
    - constructor; simpl.
      + constructor; auto.
      + intros k e H. destruct (Hc k e H) as (A & B). split; auto.
      + intros v H. destruct (Hv v H) as (A & B). split; simpl; auto.
      + intros p H. right; auto.
      + intros i j xy d H. destruct (Ht i j xy d H) as (A & B & C & D & E). repeat split; auto.
    - split; simpl; auto.
    - simpl; auto.
  Qed.

  Lemma inv_add_cache st k e :
    inv st -> In (e_id e, e_srs e) (heap st) -> (forall i s, k = KObj i s -> In (i, s) (heap st)) ->
    inv (with_cache st ((k, e) :: cache st)) /\ ext st (with_cache st ((k, e) :: cache st)).
  Proof.
    intros [Hnd Hc Hv Hp Ht] He Hk.
    assert (X : ext st (with_cache st ((k, e) :: cache st))) by (split; simpl; auto).
    split; auto.
    constructor; simpl; auto.
    - intros k' e' [H|H]; [injection H as <- <-; auto | apply Hc; auto].
    - intros v H. destruct (Hv v H) as (A & B). split; auto. eapply pinned_ext; eauto.
    - intros i j xy d H. destruct (Ht i j xy d H) as (A & B & C & D & E).
      repeat split; auto; eapply pinned_ext; eauto.
  Qed.

  Lemma make_crs_inv st sp nid st1 e :
    inv st -> (forall i s, sp = MObj i s -> In (i, s) (heap st)) ->
    make_crs st sp nid = Ok (st1, e) ->
    inv st1 /\ ext st st1 /\ (exists k, In (k, e) (cache st1)).
  Proof.
    intros I Hobj H. apply make_crs_cases in H.
    destruct H as [(-> & k' & Hin & _) | (srs & id & stm & _ & C & -> & ->)].
    - split; auto. split; [apply ext_refl|]. eauto.
    - assert (A : inv stm /\ ext st stm /\ In (id, srs) (heap stm) /\ forall i s, sp = MObj i s -> In (i, s) (heap stm)).
      { destruct C as [(E & ->) | (N & -> & A)].
        - split; auto. split; [apply ext_refl|]. split; auto.
        - destruct (inv_alloc _ _ _ _ I A) as (I1 & X & Hin). split; auto. split; auto. split; auto.
          intros i s E. destruct (N i s E). }
      destruct A as (Im & Xm & Hid & Hk).
      destruct (inv_add_cache stm (make_key W sp) (norm_entry W id srs (sp_epsg sp)) Im) as (I2 & X2).
      + destruct (norm_entry_id id srs (sp_epsg sp)) as (-> & ->). exact Hid.
      + intros i s E. apply Hk, make_key_obj, E.
      + split; auto. split; [eapply ext_trans; eauto|]. eexists; left; reflexivity.
  Qed.

  Lemma good_of_entry st k e : inv st -> In (k, e) (cache st) -> good_var st (crs_of_entry e).
  Proof.
    intros I H. split; simpl.
    - destruct (inv_cache st I k e H) as (A & _). exact A.
    - exists k, e; auto.
  Qed.

  Lemma link_inv st nid s sp stm :
    inv st -> link st nid s sp stm -> inv stm /\ ext st stm /\ (forall i r, sp = MObj i r -> In (i, r) (heap stm)).
  Proof.
    intros I L. destruct L as [n|t|s t srs stm _ _ A|i [pid psrs] G|i v0 _].
    - split; [|split]; [exact I | apply ext_refl | discriminate].
    - split; [|split]; [exact I | apply ext_refl | discriminate].
    - destruct (inv_alloc _ _ _ _ I A) as (Ia & Xa & Hin). split; auto. split; auto.
      intros i r E. inversion E; subst. exact Hin.
    - split; [|split]; [exact I | apply ext_refl |].
      intros j r E. inversion E; subst. apply (inv_pys st I), (get_py_In _ _ _ G).
    - split; [|split]; [exact I | apply ext_refl | discriminate].
  Qed.

  Lemma crs_new_inv st s nid st1 v :
    inv st -> crs_new st s nid = Ok (st1, v) -> inv st1 /\ ext st st1 /\ good_var st1 v.
  Proof.
    intros I H. apply crs_new_link in H. destruct H as [(i & _ & -> & G)|(sp & stm & e & L & M & ->)].
    - split; auto. split; [apply ext_refl|]. apply (inv_vars st I), (get_var_In _ _ _ G).
    - destruct (link_inv _ _ _ _ _ I L) as (Im & Xm & Hobj).
      destruct (make_crs_inv _ _ _ _ _ Im Hobj M) as (I1 & X1 & k & Hk).
      split; auto. split; [eapply ext_trans; eauto|]. eapply good_of_entry; eauto.
  Qed.

  Lemma var_content st v s : inv st -> In (Some v) (vars st) -> In (c_id v, s) (heap st) -> s = c_srs v.
  Proof.
    intros I H Hs. destruct (inv_vars st I v H) as (A & _).
    eapply NoDup_fst_fun; eauto. apply (inv_nodup st I).
  Qed.

  Theorem step_inv st o st' x : inv st -> step st o = Ok (st', x) -> inv st'.
  Proof.
    intros I H. destruct o as [t nid|s nid|i|i j|i|i| |i j xy]; simpl in H.
    - destruct (o_prep W t) as [srs|]; [|discriminate].
      inv_ok H as st1 A. injection H as <- <-.
      destruct (inv_alloc _ _ _ _ I A) as (I1 & _ & Hin).
      apply inv_with_pys; auto. apply all_some_snoc; auto. exact (inv_pys _ I1).
    - inv_ok H as [st1 v] N. injection H as <- <-. simpl.
      destruct (crs_new_inv _ _ _ _ _ I N) as (I1 & _ & G).
      apply inv_sweep, inv_with_vars; auto. apply all_some_snoc; auto. exact (inv_vars _ I1).
    - inv_ok H as v Hv. injection H as <- <-.
      apply inv_with_vars; auto. apply all_some_set; [exact (inv_vars _ I)|].
      unfold good_var. destruct (to_epsg_same v) as (-> & -> & _).
      apply (inv_vars st I), (get_var_In _ _ _ Hv).
    - inv_ok H as a Ha. inv_ok H as b Hb. injection H as <- <-; auto.
    - inv_ok H as v Hv. injection H as <- <-.
      apply inv_sweep, inv_with_vars; auto. apply all_some_set; [exact (inv_vars _ I) | exact Logic.I].
    - inv_ok H as p Hp. injection H as <- <-.
      apply inv_sweep, inv_with_pys; auto. apply all_some_set; [exact (inv_pys _ I) | exact Logic.I].
    - injection H as <- <-. apply inv_sweep; auto.
    - inv_ok H as a Ha. inv_ok H as b Hb.
      destruct (tc_get (tcache st) (c_id a, c_id b, xy)) as [d|] eqn:G.
      + injection H as <- <-; auto.
      + injection H as <- <-.
        apply get_var_In in Ha, Hb.
        destruct (inv_vars st I a Ha) as (A0 & B0). destruct (inv_vars st I b Hb) as (A1 & B1).
        destruct I as [Hnd Hc Hv Hp Ht]. constructor; simpl; auto.
        intros i' j' xy' d [H|H]; [|apply Ht; auto].
        inversion H; subst; simpl. repeat split; auto.
  Qed.

  Lemma run_preserves (P : state -> Prop) h :
    (forall st o st' x, In o h -> P st -> step st o = Ok (st', x) -> P st') ->
    forall st, P st -> P (run st h).
  Proof.
    induction h as [|o r IH]; intros Hs st Hp; simpl; auto.
    assert (Hr : forall s o' s' y, In o' r -> P s -> step s o' = Ok (s', y) -> P s').
    { intros s o' s' y Hin. apply (Hs s o' s' y). right; exact Hin. }
    destruct (step st o) as [[st' x]|e] eqn:E; apply IH; auto.
    apply (Hs st o st' x); auto. left; reflexivity.
  Qed.

  Theorem run_inv h st : inv st -> inv (run st h).
  Proof. apply run_preserves. intros s o s' x _. apply step_inv. Qed.

  Corollary reachable_inv h : inv (run init h).
  Proof. apply run_inv, inv_init. Qed.

  (** only [CRS(spec)] writes [_crs_cache] *)
  Lemma step_cache st o st' x :
    step st o = Ok (st', x) ->
    cache st' = cache st \/
    exists s nid st1 v, o = OpCRS s nid /\ crs_new st s nid = Ok (st1, v) /\ cache st' = cache st1.
  Proof.
    intros H. destruct o as [t nid|sp nid|i|i j|i|i| |i j xy]; simpl in H.
    - destruct (o_prep W t) as [srs|]; [|discriminate].
      inv_ok H as st1 A. injection H as <- <-. apply alloc_ok in A. destruct A as (-> & _). auto.
    - inv_ok H as [st1 v] N. injection H as <- <-. right. exists sp, nid, st1, v. auto.
    - inv_ok H as v Hv. injection H as <- <-; auto.
    - inv_ok H as a Ha. inv_ok H as b Hb. injection H as <- <-; auto.
    - inv_ok H as v Hv. injection H as <- <-; auto.
    - inv_ok H as p Hp. injection H as <- <-; auto.
    - injection H as <- <-; auto.
    - inv_ok H as a Ha. inv_ok H as b Hb.
      destruct (tc_get (tcache st) (c_id a, c_id b, xy)); injection H as <- <-; auto.
  Qed.

  (** ... and never removes an entry: an object held by an entry stays in the cache, and the
      invariant keeps it alive with the content it had *)
  Theorem run_pinned h st id s :
    inv st -> pinned st id -> In (id, s) (heap st) ->
    In (id, s) (heap (run st h)) /\ pinned (run st h) id.
  Proof.
    intros I (k & e & Hin & <-) Hs.
    assert (R : inv (run st h) /\ In (k, e) (cache (run st h))).
    { apply (run_preserves (fun st1 => inv st1 /\ In (k, e) (cache st1)) h); auto.
      intros s0 o s' x _ (I0 & H0) E. split; [exact (step_inv _ _ _ _ I0 E)|].
      destruct (step_cache _ _ _ _ E) as [->|(sp & nid & st1 & v & _ & N & ->)]; [exact H0|].
      apply (crs_new_inv _ _ _ _ _ I0 N), H0. }
    destruct R as (I' & Hin'). split; [|exists k, e; auto].
    rewrite (NoDup_fst_fun _ _ _ _ (inv_nodup _ I) Hs (proj1 (inv_cache _ I _ _ Hin))).
    exact (proj1 (inv_cache _ I' _ _ Hin')).
  Qed.

  Theorem transformer_exact st i j xy a b st' d :
    inv st -> get_var st i = Ok a -> get_var st j = Ok b ->
    step st (OpTransformer i j xy) = Ok (st', OTr d) ->
    d = (c_srs a, c_srs b, xy).
  Proof.
    intros I Ha Hb H. simpl in H. rewrite Ha, Hb in H. simpl in H.
    destruct (tc_get (tcache st) (c_id a, c_id b, xy)) as [d0|] eqn:G.
    - injection H as _ ->. apply tc_get_In in G.
      destruct (inv_tc _ I _ _ _ _ G) as (E & A & B & _).
      apply get_var_In in Ha, Hb.
      apply (var_content _ a _ I Ha) in A. apply (var_content _ b _ I Hb) in B.
      destruct d as [[s1 s2] x]. simpl in *. subst. reflexivity.
    - injection H as _ <-. reflexivity.
  Qed.

  (** an id used in a transformer-cache key cannot be handed out by the allocator *)
  Theorem transformer_ids_not_reusable st i j xy d srs :
    inv st -> In ((i, j, xy), d) (tcache st) ->
    alloc st i srs = Err (EAssert 1) /\ alloc st j srs = Err (EAssert 1).
  Proof.
    intros I H. destruct (inv_tc st I _ _ _ _ H) as (_ & A & B & _).
    split; eapply alloc_live; eauto.
  Qed.
End Proofs.
