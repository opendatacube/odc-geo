(** Proofs for C13: chunked reprojection = whole-array reprojection.

    Tiling axes ([axis_ok], [locate_spec]); the fill decision table; the window [clip] computes
    lies inside the source and contains every listed tile ([clip_spec]); the window assembled
    from the blocks holds the source there ([ba_extract_covered]); hence a chunk, pixel by pixel
    ([chunk_pixel]), against the whole-array result, pixel by pixel ([whole_pixel]). *)
From Coq Require Import ZArith List Bool Lia.
From OG Require Import Base.Result Model.ChunkedWarp.
From OG Require Base.ListSel.
Import ListNotations.
Open Scope Z_scope.

Lemma nth_map_lt {A B} (f : A -> B) l d d' k : (k < length l)%nat -> nth k (map f l) d = f (nth k l d').
Proof.
  intros H. rewrite (nth_indep _ d (f d')) by (rewrite map_length; exact H). apply map_nth.
Qed.

Lemma nth_map_seq {A} (f : nat -> A) n d k : (k < n)%nat -> nth k (map f (seq 0 n)) d = f k.
Proof.
  intros H. rewrite (nth_map_lt f _ d 0%nat) by (rewrite seq_length; exact H).
  rewrite seq_nth by exact H. reflexivity.
Qed.

Lemma nth_repeat_lt {A} (a d : A) n k : (k < n)%nat -> nth k (repeat a n) d = a.
Proof.
  intros H. rewrite (nth_indep _ d a) by (rewrite repeat_length; exact H). apply nth_repeat.
Qed.

Lemma combine_map_map {A B C} (f : A -> B) (g : A -> C) l :
  combine (map f l) (map g l) = map (fun a => (f a, g a)) l.
Proof. induction l as [|a l IH]; simpl; [reflexivity | rewrite IH; reflexivity]. Qed.

Lemma fold_left_map {A B C} (f : A -> B -> A) (g : C -> B) l :
  forall a, fold_left f (map g l) a = fold_left (fun a x => f a (g x)) l a.
Proof. induction l as [|x l IH]; intros a; simpl; [reflexivity | apply IH]. Qed.

Lemma lmin_spec l a : In (lmin a l) (a :: l) /\ forall x, In x (a :: l) -> lmin a l <= x.
Proof. exact (ListSel.fold_left_min_spec l a). Qed.

Lemma lmax_spec l a : In (lmax a l) (a :: l) /\ forall x, In x (a :: l) -> x <= lmax a l.
Proof. exact (ListSel.fold_left_max_spec l a). Qed.

Lemma lrange_spec {A} (f : A -> Z) (P : Z -> Prop) a l :
  (forall i, In i (a :: l) -> P (f i)) ->
  P (lmin (f a) (map f l)) /\ P (lmax (f a) (map f l)) /\
  forall i, In i (a :: l) -> lmin (f a) (map f l) <= f i <= lmax (f a) (map f l).
Proof.
  intros HP.
  destruct (ListSel.fold_left_sel_map Z.le Z.min Z.le_trans ltac:(intros; lia) f l a) as [(i & Hi & Ei) Ll].
  destruct (ListSel.fold_left_sel_map Z.ge Z.max ltac:(intros; lia) ltac:(intros; lia) f l a) as [(j & Hj & Ej) Lh].
  unfold lmin, lmax. rewrite Ei at 1. rewrite Ej at 1. split; [auto|]. split; [auto|].
  intros k Hk. specialize (Ll k Hk). specialize (Lh k Hk). lia.
Qed.

Lemma in_view_iff v y x :
  in_view v y x = true <-> (vy0 v <= y < vy0 v + vh v /\ vx0 v <= x < vx0 v + vw v).
Proof.
  unfold in_view. rewrite !andb_true_iff, !Z.leb_le, !Z.ltb_lt. lia.
Qed.

(** contract of a tiling axis (the C04 partition theorem supplies it): boundaries start at
    0 and never decrease, so tile [i] is the half-open interval [off i, off (i+1)) *)
Definition axis_ok (n : Z) (off : Z -> Z) : Prop :=
  0 <= n /\ off 0 = 0 /\ forall i, 0 <= i < n -> off i <= off (i + 1).

Definition tiling_ok (t : tiling) : Prop := axis_ok (nty t) (offy t) /\ axis_ok (ntx t) (offx t).

Lemma axis_span n off a i b : axis_ok n off -> 0 <= a <= i -> i <= b < n ->
  0 <= off a <= off i /\ off (i + 1) <= off (b + 1) <= off n.
Proof.
  intros (_ & H0 & Hs) Ha Hb. pose proof (ListSel.bounds_mono n off Hs) as M.
  split; split; [rewrite <- H0 | | |]; apply M; lia.
Qed.

Lemma locate_from_spec off : forall fuel i y,
  (forall k, i <= k < i + Z.of_nat fuel -> off k <= off (k + 1)) ->
  off i <= y < off (i + Z.of_nat fuel) ->
  let r := locate_from off fuel i y in
  i <= r < i + Z.of_nat fuel /\ off r <= y < off (r + 1).
Proof.
  induction fuel as [|f IH]; intros i y Hm Hy; simpl.
  - replace (i + Z.of_nat 0) with i in Hy by lia. lia.
  - destruct (Z.ltb_spec y (off (i + 1))) as [Hlt | Hge].
    + split; lia.
    + destruct (IH (i + 1) y) as (H1 & H2).
      * intros k Hk. apply Hm. lia.
      * replace (i + 1 + Z.of_nat f) with (i + Z.of_nat (S f)) by lia. lia.
      * split; [lia | exact H2].
Qed.

Lemma locate_spec n off y : axis_ok n off -> 0 <= y < off n ->
  0 <= locate off n y < n /\ off (locate off n y) <= y < off (locate off n y + 1).
Proof.
  intros (Hn & H0 & Hs) Hy. unfold locate.
  pose proof (locate_from_spec off (Z.to_nat n) 0 y) as L. simpl in L.
  rewrite Z2Nat.id in L by lia. apply L; [intros k Hk; apply Hs; lia | lia].
Qed.

Lemma axis_tile_unique n off i j y : axis_ok n off ->
  0 <= i < n -> 0 <= j < n -> off i <= y < off (i + 1) -> off j <= y < off (j + 1) -> i = j.
Proof. intros (_ & _ & Hs). exact (ListSel.bounds_unique n off y i j Hs). Qed.

Lemma offs_0 ch : offs ch 0 = 0.
Proof. reflexivity. Qed.

Lemma offs_axis_ok ch : (forall c, In c ch -> 0 <= c) -> axis_ok (Z.of_nat (length ch)) (offs ch).
Proof.
  intros Hc. split; [lia|]. split; [reflexivity|]. intros i _.
  unfold offs. apply ListSel.lsum_firstn_mono; [apply Forall_forall, Hc | lia].
Qed.

Lemma tiling_of_ok chy chx :
  (forall c, In c chy -> 0 <= c) -> (forall c, In c chx -> 0 <= c) -> tiling_ok (tiling_of chy chx).
Proof. intros Hy Hx. split; apply offs_axis_ok; assumption. Qed.

(** what [clip] returns for the bounding index range [y1, y2] x [x1, x2]: the cropped tiling
    and the window it covers in the base grid *)
Definition crop_tiling (t : tiling) (y1 y2 x1 x2 : Z) : tiling :=
  {| nty := y2 + 1 - y1; ntx := x2 + 1 - x1;
     offy := fun i => offy t (i + y1) - offy t y1; offx := fun i => offx t (i + x1) - offx t x1 |}.
Definition crop_view (t : tiling) (y1 y2 x1 x2 : Z) : view :=
  {| vy0 := offy t y1; vx0 := offx t x1;
     vh := offy t (y2 + 1) - offy t y1; vw := offx t (x2 + 1) - offx t x1 |}.

Lemma crop_tile_view t y1 y2 x1 x2 i :
  tile_view (crop_tiling t y1 y2 x1 x2) (fst i - y1, snd i - x1) =
  {| vy0 := offy t (fst i) - offy t y1; vx0 := offx t (snd i) - offx t x1;
     vh := vh (tile_view t i); vw := vw (tile_view t i) |}.
Proof.
  unfold tile_view. cbn.
  replace (fst i - y1 + 1 + y1) with (fst i + 1) by ring.
  replace (snd i - x1 + 1 + x1) with (snd i + 1) by ring.
  rewrite !Z.sub_add. f_equal; ring.
Qed.

(** excludes float data with a source nodata and no destination nodata: only there does
    rio_reproject hand the warp another destination nodata (NaN) than _do_chunked_reproject
    (none), and its fill is then not [resolve_fill_value] *)
Definition no_fill_corner {dtype N : Type} (is_float : dtype -> bool) (dn sn : option N) (dt : dtype) : Prop :=
  dn <> None \/ sn = None \/ is_float dt = false.

Section FillFacts.
  Context {dtype N V : Type}.
  Variable is_float : dtype -> bool.
  Variable cast : dtype -> N -> V.
  Variable vnan vzero : dtype -> V.
  Variable nanN : N.
  Hypothesis cast_nan : forall dt, is_float dt = true -> cast dt nanN = vnan dt.

  Let resolve := resolve_fill_value is_float cast vnan vzero.
  Let ginit := gdal_init cast vzero.

  Lemma chunk_fill_is_resolved dn sn dt :
    ginit (chunk_dst_nodata is_float nanN true dn sn dt) sn dt = resolve dn sn dt.
  Proof.
    unfold ginit, resolve, gdal_init, resolve_fill_value, chunk_dst_nodata.
    destruct dn as [d|], sn as [s|]; try reflexivity.
    destruct (is_float dt) eqn:F; [apply cast_nan; exact F | reflexivity].
  Qed.

  (** the in-memory path hands the warp the same destination nodata, except for float data
      with only a source nodata *)
  Lemma same_dst_nodata dn sn dt :
    no_fill_corner is_float dn sn dt ->
    chunk_dst_nodata is_float nanN true dn sn dt = rio_dst_nodata is_float nanN dn dt.
  Proof.
    unfold chunk_dst_nodata, rio_dst_nodata. intros H.
    destruct dn as [d|]; [reflexivity|]. destruct sn as [s|]; [|reflexivity].
    destruct H as [H | [H | H]]; [congruence | congruence | rewrite H; reflexivity].
  Qed.

  Lemma rio_fill_is_resolved dn sn dt :
    no_fill_corner is_float dn sn dt ->
    ginit (rio_dst_nodata is_float nanN dn dt) sn dt = resolve dn sn dt.
  Proof. intros H. rewrite <- (same_dst_nodata dn sn dt H). apply chunk_fill_is_resolved. Qed.

  (** after the defaulting of _xr_reproject_da the exception cannot occur *)
  Lemma xr_nodata_no_corner (dn kw attr : option N) (dt : dtype) :
    let p := xr_nodata dn kw attr in
    no_fill_corner is_float (snd p) (fst p) dt.
  Proof.
    unfold xr_nodata; simpl. destruct dn; [left; discriminate|].
    destruct kw; [left; discriminate|]. destruct attr; [left; discriminate | right; left; reflexivity].
  Qed.

  (** the unrepaired code handed dst_nodata through: float data without nodata was
      initialised with 0 in task chunks *)
  Lemma unrepaired_chunk_fill dt :
    ginit (chunk_dst_nodata is_float nanN false None None dt) None dt = vzero dt.
  Proof. reflexivity. Qed.
End FillFacts.

Section Main.
  Context {dtype N V : Type}.
  Variable is_float : dtype -> bool.
  Variable cast : dtype -> N -> V.
  Variable vnan vzero : dtype -> V.
  Variable nanN : N.
  Hypothesis cast_nan : forall dt, is_float dt = true -> cast dt nanN = vnan dt.

  Variable warp : @warp_t dtype N V.
  Variable nn : Z -> Z -> Z * Z.
  Variable sample : option N -> option N -> dtype -> V -> V.
  Let ginit := gdal_init cast vzero.
  Definition warp_contract : Prop :=
    forall dn sn dt sv s dv y x, 0 <= y < vh dv -> 0 <= x < vw dv ->
      warp dn sn dt sv s dv y x = warp_local nn sample ginit dn sn dt sv s dv y x.
  Hypothesis warp_is_local : warp_contract.

  Variables st dtl : tiling.
  Hypothesis st_ok : tiling_ok st.     (* C04 *)
  Hypothesis dtl_ok : tiling_ok dtl.   (* C04 *)
  Variable d2s : idx -> list idx.

  Let SH := offy st (nty st).
  Let SW := offx st (ntx st).

  Definition in_tile (t : tiling) (i : idx) (y x : Z) : Prop :=
    offy t (fst i) <= y < offy t (fst i + 1) /\ offx t (snd i) <= x < offx t (snd i + 1).
  Definition tile_in_range (t : tiling) (i : idx) : Prop :=
    0 <= fst i < nty t /\ 0 <= snd i < ntx t.
  Definition in_source (p : Z * Z) : Prop := 0 <= fst p < SH /\ 0 <= snd p < SW.

  (** C12 contracts on the dependency map *)
  Definition deps_in_range : Prop :=
    forall j i, In i (d2s j) -> tile_in_range st i.
  Definition deps_complete : Prop :=
    forall j y x, tile_in_range dtl j -> in_tile dtl j y x -> in_source (nn y x) ->
      exists i, In i (d2s j) /\ in_tile st i (fst (nn y x)) (snd (nn y x)).

  Hypothesis H_range : deps_in_range.

  Let resolve := resolve_fill_value is_float cast vnan vzero.
  Let chunk := dask_chunk is_float cast vnan vzero nanN warp true d2s st dtl.
  Let whole := rio_reproject is_float nanN warp st dtl.

  Lemma idx_in_range_iff t i : idx_in_range t i = true <-> tile_in_range t i.
  Proof.
    unfold tile_in_range, idx_in_range. rewrite !andb_true_iff, !Z.leb_le, !Z.ltb_lt. lia.
  Qed.

  Lemma window_spec y1 y2 x1 x2 i Y X :
    0 <= y1 -> y2 < nty st -> y1 <= fst i <= y2 -> 0 <= x1 -> x2 < ntx st -> x1 <= snd i <= x2 ->
    (in_view (crop_view st y1 y2 x1 x2) Y X = true -> in_source (Y, X)) /\
    (in_tile st i Y X -> in_view (crop_view st y1 y2 x1 x2) Y X = true).
  Proof.
    intros Hy1 Hy2 Hy Hx1 Hx2 Hx. destruct st_ok as (Hoy & Hox).
    pose proof (axis_span _ _ y1 (fst i) y2 Hoy). pose proof (axis_span _ _ x1 (snd i) x2 Hox).
    rewrite in_view_iff. unfold in_source, SH, SW, in_tile. simpl. lia.
  Qed.

  Lemma clip_spec sel :
    sel <> [] -> (forall i, In i sel -> tile_in_range st i) ->
    exists y1 y2 x1 x2,
      clip st sel = Some (crop_tiling st y1 y2 x1 x2, crop_view st y1 y2 x1 x2,
                          map (fun i => (fst i - y1, snd i - x1)) sel) /\
      (forall Y X, in_view (crop_view st y1 y2 x1 x2) Y X = true -> in_source (Y, X)) /\
      (forall i Y X, In i sel -> in_tile st i Y X -> in_view (crop_view st y1 y2 x1 x2) Y X = true).
  Proof.
    intros Hne Hr. destruct sel as [|i0 rest]; [congruence|].
    destruct (lrange_spec fst (fun v => 0 <= v < nty st) i0 rest) as (Ly & Hy & By);
      [intros i Hi; apply (Hr i Hi)|].
    destruct (lrange_spec snd (fun v => 0 <= v < ntx st) i0 rest) as (Lx & Hx & Bx);
      [intros i Hi; apply (Hr i Hi)|].
    pose proof (fun i Hi Y X => window_spec _ _ _ _ i Y X (proj1 Ly) (proj2 Hy) (By i Hi)
                                            (proj1 Lx) (proj2 Hx) (Bx i Hi)) as W.
    exists (lmin (fst i0) (map fst rest)), (lmax (fst i0) (map fst rest)),
      (lmin (snd i0) (map snd rest)), (lmax (snd i0) (map snd rest)).
    split; [destruct i0; reflexivity|]. split.
    - intros Y X. apply (W i0). left; reflexivity.
    - intros i Y X Hi. apply (W i Hi).
  Qed.

  (** BlockAssembler.extract: wherever some pasted block covers a window pixel the
      assembled value is the source value, provided every block is the source re-based to
      the origin of its rectangle *)
  Lemma fold_paste_spec (S : plane V) (vw_of : idx -> view) (blk : idx -> plane V) :
    (forall i y x, blk i (y - vy0 (vw_of i)) (x - vx0 (vw_of i)) = S y x) ->
    forall (l : list idx) (acc : plane V) y x,
      (acc y x = S y x \/ exists i, In i l /\ in_view (vw_of i) y x = true) ->
      fold_left (fun a i => paste a (vw_of i) (blk i)) l acc y x = S y x.
  Proof.
    intros Hc. induction l as [|i l IH]; intros acc y x H; simpl.
    - destruct H as [H | (i & [] & _)]; exact H.
    - apply IH. unfold paste at 1. destruct (in_view (vw_of i) y x) eqn:E; [left; apply Hc|].
      destruct H as [H | (i' & [<- | Hi'] & E')]; [left; exact H | congruence | right; exists i'; split; assumption].
  Qed.

  Lemma ba_extract_covered (src : list (plane V)) k dflt fill y1 y2 x1 x2 sel i Y X :
    (k < length src)%nat -> In i sel -> in_tile st i Y X ->
    ba_extract (crop_tiling st y1 y2 x1 x2) fill
      (combine (map (fun i => (fst i - y1, snd i - x1)) sel) (map (src_block st src) sel)) k
      (Y - offy st y1) (X - offx st x1) = nth k src dflt Y X.
  Proof.
    intros Hk Hi Ht. unfold ba_extract. rewrite combine_map_map, fold_left_map. cbn [fst snd].
    pose (S := fun y x => nth k src dflt (y + offy st y1) (x + offx st x1)).
    transitivity (S (Y - offy st y1) (X - offx st x1)); [|unfold S; rewrite !Z.sub_add; reflexivity].
    apply (fold_paste_spec S (fun a => tile_view (crop_tiling st y1 y2 x1 x2) (fst a - y1, snd a - x1))
                           (fun a => nth k (src_block st src a) (fun _ _ => fill))).
    - intros a y x. rewrite crop_tile_view. cbn [vy0 vx0].
      unfold src_block. rewrite (nth_map_lt _ src _ dflt) by exact Hk. unfold S. f_equal; ring.
    - right. exists i. split; [exact Hi|]. rewrite crop_tile_view. apply in_view_iff.
      unfold in_tile in Ht. simpl. lia.
  Qed.

  Lemma dask_chunk_const (src : list (plane V)) dn sn dt j :
    d2s j = [] ->
    chunk src dn sn dt j = Ok (repeat (fun _ _ => resolve dn sn dt) (length src)).
  Proof. intros E. unfold chunk, dask_chunk, graph_node. rewrite E. reflexivity. Qed.

  Lemma dask_chunk_task (src : list (plane V)) dn sn dt j :
    d2s j <> [] ->
    chunk src dn sn dt j =
    do_chunked_reproject is_float cast vnan vzero nanN warp true d2s st dtl j
                         (map (src_block st src) (d2s j)) dn sn dt.
  Proof.
    intros Hne. unfold chunk, dask_chunk, graph_node.
    destruct (d2s j) as [|i0 rest] eqn:Ed; [congruence|]. rewrite <- Ed. unfold run_node.
    replace (forallb (idx_in_range st) (d2s j)) with true; [reflexivity|].
    symmetry. apply forallb_forall. intros i Hi. apply idx_in_range_iff, (H_range j i Hi).
  Qed.

  Lemma chunk_pixel (src : list (plane V)) dn sn dt j :
    exists ps,
      chunk src dn sn dt j = Ok ps /\ length ps = length src /\
      forall k dflt y x, (k < length src)%nat ->
        0 <= y < vh (tile_view dtl j) -> 0 <= x < vw (tile_view dtl j) ->
        let p := nn (y + offy dtl (fst j)) (x + offx dtl (snd j)) in
        ((exists i, In i (d2s j) /\ in_tile st i (fst p) (snd p)) ->
           nth k ps dflt y x = sample (chunk_dst_nodata is_float nanN true dn sn dt) sn dt
                                      (nth k src dflt (fst p) (snd p))) /\
        (d2s j = [] \/ ~ in_source p -> nth k ps dflt y x = resolve dn sn dt).
  Proof.
    destruct (d2s j) as [|i0 rest] eqn:Ed.
    - eexists. split; [apply dask_chunk_const, Ed|]. split; [apply repeat_length|].
      intros k dflt y x Hk _ _ p. split; [intros (i & [] & _) | intros _; rewrite nth_repeat_lt by exact Hk; reflexivity].
    - assert (Hne : d2s j <> []) by congruence. rewrite <- Ed. clear i0 rest Ed.
      destruct (clip_spec (d2s j) Hne (H_range j)) as (y1 & y2 & x1 & x2 & Ec & Wsrc & Wcov).
      rewrite (dask_chunk_task src dn sn dt j Hne). unfold do_chunked_reproject. rewrite Ec. cbv beta iota zeta.
      replace (nplanes _) with (length src) by (destruct (d2s j); [congruence | symmetry; apply map_length]).
      eexists. split; [reflexivity|]. split; [rewrite map_length; apply seq_length|].
      intros k dflt y x Hk Hy Hx. rewrite nth_map_seq by exact Hk.
      rewrite warp_is_local by assumption. unfold warp_local. cbn [vy0 vx0 tile_view crop_view].
      set (p := nn _ _).
      split.
      + intros (i & Hi & Ht). rewrite (Wcov i _ _ Hi Ht). f_equal.
        apply ba_extract_covered with (i := i); assumption.
      + intros [C | Hout]; [contradiction|].
        destruct (in_view _ (fst p) (snd p)) eqn:E; [destruct Hout; apply Wsrc, E|].
        apply chunk_fill_is_resolved, cast_nan.
  Qed.

  Lemma whole_pixel (src : list (plane V)) dn sn dt k dflt y x :
    (k < length src)%nat -> 0 <= y < offy dtl (nty dtl) -> 0 <= x < offx dtl (ntx dtl) ->
    let dn' := rio_dst_nodata is_float nanN dn dt in
    (in_source (nn y x) ->
       nth k (whole src dn sn dt) dflt y x = sample dn' sn dt (nth k src dflt (fst (nn y x)) (snd (nn y x)))) /\
    (~ in_source (nn y x) -> nth k (whole src dn sn dt) dflt y x = ginit dn' sn dt).
  Proof.
    intros Hk Hy Hx dn'. unfold whole, rio_reproject.
    rewrite (nth_map_lt _ src _ dflt) by exact Hk.
    rewrite warp_is_local by (simpl; lia).
    unfold warp_local. cbn [vy0 vx0 base_view]. rewrite !Z.add_0_r, !Z.sub_0_r.
    assert (E : in_view (base_view st) (fst (nn y x)) (snd (nn y x)) = true <-> in_source (nn y x)).
    { rewrite in_view_iff. unfold in_source, SH, SW. simpl. lia. }
    destruct (in_view (base_view st) _ _); split; intros H; try reflexivity.
    - destruct H. apply E. reflexivity.
    - apply E in H. discriminate H.
  Qed.

  Lemma tile_local_in_dst j y x : tile_in_range dtl j ->
    0 <= y < vh (tile_view dtl j) -> 0 <= x < vw (tile_view dtl j) ->
    0 <= y + offy dtl (fst j) < offy dtl (nty dtl) /\ 0 <= x + offx dtl (snd j) < offx dtl (ntx dtl) /\
    in_tile dtl j (y + offy dtl (fst j)) (x + offx dtl (snd j)).
  Proof.
    intros (Rjy & Rjx) Hy Hx. simpl in Hy, Hx. destruct dtl_ok as (Hoy & Hox).
    pose proof (axis_span _ _ (fst j) (fst j) (fst j) Hoy). pose proof (axis_span _ _ (snd j) (snd j) (snd j) Hox).
    unfold in_tile. lia.
  Qed.

  Theorem whole_unreached_is_fill (src : list (plane V)) dn sn dt k dflt y x :
    no_fill_corner is_float dn sn dt ->
    (k < length src)%nat -> 0 <= y < offy dtl (nty dtl) -> 0 <= x < offx dtl (ntx dtl) ->
    ~ in_source (nn y x) ->
    nth k (whole src dn sn dt) dflt y x = resolve dn sn dt.
  Proof.
    intros Hc Hk Hy Hx Hout.
    destruct (whole_pixel src dn sn dt k dflt y x Hk Hy Hx) as (_ & Hw). rewrite Hw by exact Hout.
    apply rio_fill_is_resolved; assumption.
  Qed.

  Theorem chunk_equals_whole (src : list (plane V)) dn sn dt j :
    deps_complete ->
    no_fill_corner is_float dn sn dt ->
    tile_in_range dtl j ->
    exists ps,
      chunk src dn sn dt j = Ok ps /\ length ps = length src /\
      forall k dflt y x, (k < length src)%nat ->
        0 <= y < vh (tile_view dtl j) -> 0 <= x < vw (tile_view dtl j) ->
        nth k ps dflt y x = nth k (whole src dn sn dt) dflt (y + offy dtl (fst j)) (x + offx dtl (snd j)).
  Proof.
    intros Hcomp Hcorner Hj. destruct (chunk_pixel src dn sn dt j) as (ps & E & Hl & Hp).
    exists ps. split; [exact E|]. split; [exact Hl|]. intros k dflt y x Hk Hy Hx.
    destruct (tile_local_in_dst j y x Hj Hy Hx) as (Gy & Gx & Ht).
    destruct (Hp k dflt y x Hk Hy Hx) as (Hin & Hout).
    set (p := nn (y + offy dtl (fst j)) (x + offx dtl (snd j))) in *.
    assert (Hdec : in_source p \/ ~ in_source p) by (unfold in_source; lia).
    destruct Hdec as [I | O].
    - rewrite Hin by exact (Hcomp j _ _ Hj Ht I).
      rewrite (proj1 (whole_pixel src dn sn dt k dflt _ _ Hk Gy Gx) I).
      rewrite (same_dst_nodata is_float nanN dn sn dt Hcorner). reflexivity.
    - rewrite Hout by (right; exact O). symmetry. apply whole_unreached_is_fill; assumption.
  Qed.

  (** a fact about every pixel of every chunk is a fact about every pixel of the assembled
      dask array *)
  Lemma dask_pixel_of_chunk (F : plane V) (src : list (plane V)) dn sn dt k dflt y x :
    0 <= y < offy dtl (nty dtl) -> 0 <= x < offx dtl (ntx dtl) ->
    (forall j, tile_in_range dtl j -> exists ps, chunk src dn sn dt j = Ok ps /\
       forall y x, 0 <= y < vh (tile_view dtl j) -> 0 <= x < vw (tile_view dtl j) ->
         nth k ps dflt y x = F (y + offy dtl (fst j)) (x + offx dtl (snd j))) ->
    dask_pixel is_float cast vnan vzero nanN warp true d2s st dtl src dn sn dt dflt k y x = Ok (F y x).
  Proof.
    intros Hy Hx Hc. unfold dask_pixel. destruct dtl_ok as (Hoy & Hox).
    destruct (locate_spec _ _ y Hoy Hy) as (Ry & Ly). destruct (locate_spec _ _ x Hox Hx) as (Rx & Lx).
    set (jy := locate (offy dtl) (nty dtl) y) in *. set (jx := locate (offx dtl) (ntx dtl) x) in *.
    destruct (Hc (jy, jx)) as (ps & E & Hp); [split; assumption|].
    unfold chunk in E. rewrite E, Hp by (simpl; lia). simpl. rewrite !Z.sub_add. reflexivity.
  Qed.

  Theorem dask_equals_whole (src : list (plane V)) dn sn dt :
    deps_complete ->
    no_fill_corner is_float dn sn dt ->
    forall k dflt y x, (k < length src)%nat ->
      0 <= y < offy dtl (nty dtl) -> 0 <= x < offx dtl (ntx dtl) ->
      dask_pixel is_float cast vnan vzero nanN warp true d2s st dtl src dn sn dt dflt k y x
      = Ok (nth k (whole src dn sn dt) dflt y x).
  Proof.
    intros Hcomp Hcorner k dflt y x Hk Hy Hx.
    apply (dask_pixel_of_chunk (nth k (whole src dn sn dt) dflt)); [exact Hy | exact Hx|].
    intros j Hj. destruct (chunk_equals_whole src dn sn dt j Hcomp Hcorner Hj) as (ps & E & _ & Hp).
    exists ps. split; [exact E|]. intros y' x'. apply Hp, Hk.
  Qed.

  Theorem disjoint_all_fill (src : list (plane V)) dn sn dt :
    (forall y x, 0 <= y < offy dtl (nty dtl) -> 0 <= x < offx dtl (ntx dtl) -> ~ in_source (nn y x)) ->
    forall k dflt y x, (k < length src)%nat ->
      0 <= y < offy dtl (nty dtl) -> 0 <= x < offx dtl (ntx dtl) ->
      dask_pixel is_float cast vnan vzero nanN warp true d2s st dtl src dn sn dt dflt k y x
      = Ok (resolve dn sn dt).
  Proof.
    intros Hdis k dflt y x Hk Hy Hx.
    apply (dask_pixel_of_chunk (fun _ _ => resolve dn sn dt)); [exact Hy | exact Hx|].
    intros j Hj. destruct (chunk_pixel src dn sn dt j) as (ps & E & _ & Hp).
    exists ps. split; [exact E|]. intros y' x' Hy' Hx'.
    apply (Hp k dflt y' x' Hk Hy' Hx'). right.
    destruct (tile_local_in_dst j y' x' Hj Hy' Hx') as (Gy & Gx & _). apply Hdis; assumption.
  Qed.
End Main.
