(** Lemmas about the _rio.py decision-logic model (Model/RioCog.v): which array shapes
    [norm_layout] accepts as which band layout, [src_index] as a bijection between output
    samples and input positions, the read-back order, default overview levels, and the
    association-list file system behind the overwrite guard. *)
From Coq Require Import ZArith List Bool Lia Permutation.
From OG Require Import Base.Result Model.CogLayout Proofs.CogTilesProofs Model.RioCog.
Import ListNotations.
Open Scope Z_scope.

Lemma ravel_2 h w y x : ravel [h; w] [y; x] = y * w + x.
Proof. unfold ravel; simpl; ring. Qed.

Lemma ravel_3 d0 d1 d2 i j k : ravel [d0; d1; d2] [i; j; k] = (i * d1 + j) * d2 + k.
Proof. unfold ravel; simpl; ring. Qed.

Lemma src_index_2d h w b y x : src_index L2d (1, h, w) b y x = ravel [h; w] [y; x].
Proof. rewrite ravel_2. reflexivity. Qed.

Lemma src_index_band_first nb h w b y x :
  src_index LBandFirst (nb, h, w) b y x = ravel [nb; h; w] [b; y; x].
Proof. rewrite ravel_3. reflexivity. Qed.

Lemma src_index_band_last nb h w b y x :
  src_index LBandLast (nb, h, w) b y x = ravel [h; w; nb] [y; x; b].
Proof. rewrite ravel_3. reflexivity. Qed.

Lemma zz_eq_spec a b : reflect (a = b) (zz_eq a b).
Proof.
  destruct a as [a1 a2], b as [b1 b2]. unfold zz_eq; cbn [fst snd].
  destruct (Z.eqb_spec a1 b1), (Z.eqb_spec a2 b2); constructor; congruence.
Qed.

Lemma zz_eq_refl a : zz_eq a a = true.
Proof. destruct (zz_eq_spec a a); congruence. Qed.

Lemma norm_layout_2d_ok h w ya : ya <> Some 1 -> norm_layout [h; w] (h, w) ya = Ok (L2d, (1, h, w)).
Proof.
  intros Hya. simpl. rewrite zz_eq_refl.
  destruct ya as [v|]; [|reflexivity]. destruct (Z.eqb_spec v 1); [congruence | reflexivity].
Qed.

Lemma norm_layout_2d_xy h w : norm_layout [w; h] (h, w) (Some 1) = Ok (L2dT, (1, h, w)).
Proof. simpl. rewrite zz_eq_refl. reflexivity. Qed.

Lemma src_index_2d_xy h w b y x : src_index L2dT (1, h, w) b y x = ravel [w; h] [x; y].
Proof. rewrite ravel_2. reflexivity. Qed.

Lemma norm_layout_band_last_guess h w nb :
  norm_layout [h; w; nb] (h, w) None = Ok (LBandLast, (nb, h, w)).
Proof. simpl. rewrite zz_eq_refl. reflexivity. Qed.

(* the shape-based guess takes a (B, H, W) array for band-first unless
   (B, H) = (H, W), the inherent ambiguity of a cube-shaped array *)
Lemma norm_layout_band_first_guess nb h w :
  (nb, h) <> (h, w) -> norm_layout [nb; h; w] (h, w) None = Ok (LBandFirst, (nb, h, w)).
Proof.
  intros Hne. simpl. destruct (zz_eq_spec (nb, h) (h, w)); [contradiction|].
  rewrite zz_eq_refl. reflexivity.
Qed.

Lemma norm_layout_band_first_known nb h w :
  norm_layout [nb; h; w] (h, w) (Some 1) = Ok (LBandFirst, (nb, h, w)).
Proof. simpl. rewrite zz_eq_refl. reflexivity. Qed.

Lemma norm_layout_band_last_known h w nb :
  norm_layout [h; w; nb] (h, w) (Some 0) = Ok (LBandLast, (nb, h, w)).
Proof. simpl. rewrite zz_eq_refl. reflexivity. Qed.

Lemma norm_layout_cases shape g ya :
  match norm_layout shape g ya with
  | Ok (L2d, dims) => exists h w, shape = [h; w] /\ g = (h, w) /\ dims = (1, h, w) /\ ya <> Some 1
  | Ok (L2dT, dims) => exists h w, shape = [w; h] /\ g = (h, w) /\ dims = (1, h, w) /\ ya = Some 1
  | Ok (LBandLast, dims) =>
      exists h w nb, shape = [h; w; nb] /\ g = (h, w) /\ dims = (nb, h, w) /\ (ya = None \/ ya = Some 0)
  | Ok (LBandFirst, dims) =>
      exists nb h w, shape = [nb; h; w] /\ g = (h, w) /\ dims = (nb, h, w) /\
                     (ya = None /\ (nb, h) <> (h, w) \/ exists v, ya = Some v /\ v <> 0)
  | Err EValue =>
      (length shape <> 2%nat /\ length shape <> 3%nat) \/
      exists d0 d1 d2, shape = [d0; d1; d2] /\ g <> (d1, d2) /\
                       (ya = None /\ g <> (d0, d1) \/ exists v, ya = Some v /\ v <> 0)
  | Err (EAssert _) =>
      (exists d0 d1, shape = [d0; d1] /\ (ya <> Some 1 /\ g <> (d0, d1) \/ ya = Some 1 /\ g <> (d1, d0))) \/
      (exists d0 d1 d2, shape = [d0; d1; d2] /\ ya = Some 0 /\ g <> (d0, d1))
  | Err _ => False
  end.
Proof.
  destruct shape as [|d0 [|d1 [|d2 [|d3 r]]]]; simpl; try (left; split; discriminate).
  - assert (Hxy : reflect (ya = Some 1) (match ya with Some v => v =? 1 | None => false end)).
    { destruct ya as [v|]; [destruct (Z.eqb_spec v 1)|]; constructor; congruence. }
    destruct Hxy as [->|Hya].
    + destruct (zz_eq_spec g (d1, d0)) as [->|Hg]; [exists d1, d0; auto | left; exists d0, d1; auto].
    + destruct (zz_eq_spec g (d0, d1)) as [->|Hg]; [exists d0, d1; auto | left; exists d0, d1; auto].
  - destruct ya as [v|]; [destruct (Z.eqb_spec v 0) as [->|Hv]|].
    + destruct (zz_eq_spec g (d0, d1)) as [->|Hg]; [exists d0, d1, d2; auto | right; exists d0, d1, d2; auto].
    + destruct (zz_eq_spec (d1, d2) g) as [<-|Hg]; simpl.
      * exists d0, d1, d2. eauto 8.
      * right. exists d0, d1, d2. split; [reflexivity|]. split; [congruence | eauto].
    + destruct (zz_eq_spec (d0, d1) g) as [<-|Hg]; [rewrite zz_eq_refl; exists d0, d1, d2; auto|].
      destruct (zz_eq_spec (d1, d2) g) as [<-|Hg2]; simpl.
      * exists d0, d1, d2. auto 6.
      * right. exists d0, d1, d2. split; [reflexivity|]. split; [congruence|]. left. split; congruence.
Qed.

Definition sample_in_range (dims : Z * Z * Z) (b y x : Z) : Prop :=
  let '(nb, h, w) := dims in 0 <= b < nb /\ 0 <= y < h /\ 0 <= x < w.

Definition layout_dims_ok (l : layout) (dims : Z * Z * Z) : Prop :=
  let '(nb, h, w) := dims in match l with L2d | L2dT => nb = 1 | _ => True end.

Lemma src_index_bound l nb h w b y x :
  layout_dims_ok l (nb, h, w) -> sample_in_range (nb, h, w) b y x ->
  0 <= src_index l (nb, h, w) b y x < nb * h * w.
Proof.
  unfold sample_in_range, layout_dims_ok, src_index. intros Hl (Hb & Hy & Hx). destruct l.
  - pose proof (radix_bound h w y x Hy Hx). subst nb. lia.
  - pose proof (radix_bound w h x y Hx Hy). subst nb. lia.
  - apply radix_bound; [apply radix_bound|]; assumption.
  - pose proof (radix_bound (h * w) nb _ b (radix_bound h w y x Hy Hx) Hb). lia.
Qed.

Lemma src_index_inj l nb h w b y x b' y' x' :
  layout_dims_ok l (nb, h, w) ->
  sample_in_range (nb, h, w) b y x -> sample_in_range (nb, h, w) b' y' x' ->
  src_index l (nb, h, w) b y x = src_index l (nb, h, w) b' y' x' ->
  (b, y, x) = (b', y', x').
Proof.
  unfold sample_in_range, layout_dims_ok, src_index. intros Hl (Hb & Hy & Hx) (Hb' & Hy' & Hx') E. destruct l.
  - destruct (radix_inj w y x y' x' Hx Hx' E) as [-> ->]. replace b' with b by lia. reflexivity.
  - destruct (radix_inj h x y x' y' Hy Hy' E) as [-> ->]. replace b' with b by lia. reflexivity.
  - destruct (radix_inj w _ x _ x' Hx Hx' E) as [E' ->].
    destruct (radix_inj h b y b' y' Hy Hy' E') as [-> ->]. reflexivity.
  - destruct (radix_inj nb _ b _ b' Hb Hb' E) as [E' ->].
    destruct (radix_inj w y x y' x' Hx Hx' E') as [-> ->]. reflexivity.
Qed.

(* peel off the innermost digit of [t], then the next *)
Lemma src_index_surj l nb h w t :
  layout_dims_ok l (nb, h, w) -> 0 <= nb -> 0 <= h -> 0 <= w -> 0 <= t < nb * h * w ->
  exists b y x, sample_in_range (nb, h, w) b y x /\ src_index l (nb, h, w) b y x = t.
Proof.
  unfold sample_in_range, layout_dims_ok, src_index. intros Hl Nb Nh Nw Ht.
  assert (P : 0 < nb * h * w) by lia.
  apply Z.lt_0_mul in P as [[P Pw]|?]; [|lia]. apply Z.lt_0_mul in P as [[Pb Ph]|?]; [|lia].
  destruct l.
  - destruct (radix_onto h w t Pw ltac:(lia)) as (Hy & Hx & E).
    exists 0, (t / w), (t mod w). split; [split; [lia | split; assumption] | exact E].
  - destruct (radix_onto w h t Ph ltac:(lia)) as (Hx & Hy & E).
    exists 0, (t mod h), (t / h). split; [split; [lia | split; assumption] | exact E].
  - destruct (radix_onto (nb * h) w t Pw Ht) as (Hq & Hx & E).
    destruct (radix_onto nb h (t / w) Ph Hq) as (Hb & Hy & E').
    exists (t / w / h), ((t / w) mod h), (t mod w). rewrite E'. auto.
  - destruct (radix_onto (h * w) nb t Pb ltac:(lia)) as (Hq & Hb & E).
    destruct (radix_onto h w (t / nb) Pw Hq) as (Hy & Hx & E').
    exists (t mod nb), (t / nb / w), ((t / nb) mod w). rewrite E'. auto.
Qed.

Lemma readback_eq l nb h w :
  readback_indices l (nb, h, w) = map (fun '(b, y, x) => src_index l (nb, h, w) b y x) (grid3 nb h w).
Proof.
  unfold readback_indices, grid3, grid_plane. rewrite map_flat_map. apply flat_map_ext. intros b.
  rewrite map_flat_map. apply flat_map_ext. intros y. rewrite map_map. reflexivity.
Qed.

Lemma in_readback l nb h w t :
  In t (readback_indices l (nb, h, w)) <->
  exists b y x, sample_in_range (nb, h, w) b y x /\ src_index l (nb, h, w) b y x = t.
Proof.
  rewrite readback_eq, in_map_iff. split.
  - intros ([[b y] x] & E & Hin). exists b, y, x. split; [apply in_grid3, Hin | exact E].
  - intros (b & y & x & R & E). exists (b, y, x). split; [exact E | apply in_grid3, R].
Qed.

Lemma NoDup_readback l nb h w :
  layout_dims_ok l (nb, h, w) -> NoDup (readback_indices l (nb, h, w)).
Proof.
  intros Hl. rewrite readback_eq. apply NoDup_map_in; [|apply NoDup_grid3].
  intros [[b y] x] [[b' y'] x'] Ha Hb. apply in_grid3 in Ha, Hb. apply src_index_inj; assumption.
Qed.

Lemma readback_is_permutation l nb h w :
  layout_dims_ok l (nb, h, w) -> 0 <= nb -> 0 <= h -> 0 <= w ->
  Permutation (readback_indices l (nb, h, w)) (zrange (nb * h * w)).
Proof.
  intros Hl Nb Nh Nw. apply NoDup_Permutation; [apply NoDup_readback; auto | apply NoDup_zrange|].
  intros t. rewrite in_readback, in_zrange. split.
  - intros (b & y & x & R & <-). apply src_index_bound; auto.
  - intros Ht. apply src_index_surj; auto.
Qed.

Lemma overview_levels_spec req w h :
  overview_levels req w h =
    match req with
    | Some l => l
    | None => if Z.min w h <? 512 then [] else [2; 4; 8; 16; 32]
    end.
Proof. reflexivity. Qed.

Lemma overview_levels_default_small w h : Z.min w h < 512 -> overview_levels None w h = [].
Proof. intros H. unfold overview_levels. apply Z.ltb_lt in H. rewrite H. reflexivity. Qed.

Lemma overview_levels_default_large w h : 512 <= w -> 512 <= h -> overview_levels None w h = [2; 4; 8; 16; 32].
Proof.
  intros Hw Hh. unfold overview_levels. destruct (Z.min w h <? 512) eqn:E; [apply Z.ltb_lt in E; lia | reflexivity].
Qed.

Lemma fs_lookup_unlink_same s p : fs_lookup (fs_unlink s p) p = None.
Proof.
  unfold fs_lookup, fs_unlink. induction s as [|[q c] s IH]; simpl; auto.
  destruct (q =? p) eqn:E; simpl; auto. rewrite E. exact IH.
Qed.

Lemma fs_lookup_unlink_other s p q : q <> p -> fs_lookup (fs_unlink s p) q = fs_lookup s q.
Proof.
  intros Hne. unfold fs_lookup, fs_unlink. induction s as [|[r c] s IH]; simpl; auto.
  destruct (r =? p) eqn:E; simpl.
  - apply Z.eqb_eq in E; subst r. destruct (p =? q) eqn:E2; [apply Z.eqb_eq in E2; congruence | exact IH].
  - destruct (r =? q) eqn:E2; [reflexivity | exact IH].
Qed.

Lemma fs_lookup_write_same s p c : fs_lookup (fs_write s p c) p = Some c.
Proof. unfold fs_lookup, fs_write. simpl. rewrite Z.eqb_refl. reflexivity. Qed.

Lemma fs_lookup_write_other s p q c : q <> p -> fs_lookup (fs_write s p c) q = fs_lookup s q.
Proof.
  intros Hne. unfold fs_write. unfold fs_lookup at 1. simpl.
  destruct (p =? q) eqn:E; [apply Z.eqb_eq in E; congruence|].
  apply fs_lookup_unlink_other. exact Hne.
Qed.
