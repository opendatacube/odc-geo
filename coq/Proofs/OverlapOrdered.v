(** The regions returned on the sampled path of compute_reproject_roi (same CRS with
    rotation/fractional scale, and every cross-CRS call) are well-formed slices:
    start <= stop on both axes of both regions (so a region is empty only as
    [k:k], never as a "negative" slice that numpy would read from the far end). *)
From Coq Require Import ZArith QArith Qround Lia.
From OG Require Import Base.QZ Model.Roi Model.Overlap Proofs.RoiPointsProofs Proofs.OverlapProofs.
Open Scope Z_scope.

Lemma axis_from_points_ordered vals n padding align lim :
  0 <= n -> 0 <= padding -> align_ok align ->
  let r := axis_from_points vals n padding align lim in fst r <= snd r.
Proof.
  intros Hn Hp Ha. destruct vals as [|v vs]; [cbn; lia|].
  destruct (axis_from_points_bounds v vs n padding align lim Ha) as (lo & hi & -> & (_ & Hlo & _) & (_ & Hhi & _)).
  assert (Hq : Qfloor (Qmin_list v vs) <= Qceiling (Qmax_list v vs)).
  { apply Z.le_trans with (Qfloor (Qmax_list v vs)); [|apply Qfloor_le_ceiling].
    apply Qfloor_resp_le. eapply Qle_trans; [apply Qmin_list_le_d | apply Qmax_list_ge_d]. }
  apply (clipZ_mono _ _ (- lim) lim) in Hq. fold (Qclip_floor (Qmin_list v vs) lim) (Qclip_ceil (Qmax_list v vs) lim) in Hq.
  apply clipZ_mono. lia.
Qed.

Definition roi_ordered (r : roi2) : Prop :=
  fst (fst r) <= snd (fst r) /\ fst (snd r) <= snd (snd r).

Lemma roi_from_points_ordered pts ny nx padding align :
  0 <= ny -> 0 <= nx -> 0 <= padding -> align_ok align ->
  roi_ordered (roi_from_points pts ny nx padding align).
Proof.
  intros Hy Hx Hp Ha. split; apply axis_from_points_ordered; assumption.
Qed.

Lemma relative_rois_ordered back fwd ss ds n padding align :
  0 <= fst ss -> 0 <= snd ss -> 0 <= fst ds -> 0 <= snd ds ->
  0 <= padding -> align_ok align ->
  roi_ordered (fst (relative_rois back fwd ss ds n padding align)) /\
  roi_ordered (snd (relative_rois back fwd ss ds n padding align)).
Proof.
  intros S1 S2 D1 D2 Hp Ha. apply relative_rois_both.
  1-3: intros pts; apply roi_from_points_ordered; cbn; auto; lia.
  unfold roi_ordered. cbn. lia.
Qed.
