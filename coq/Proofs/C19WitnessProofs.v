(** A small concrete oracle satisfying all contracts: non-vacuity of the C19
    theorems, and the oracle of the witnesses of the refuted statements. *)
From Coq Require Import QArith List.
From OG Require Import Model.CrsCache.
Import ListNotations.
Open Scope Z_scope.

(** texts: 1 "EPSG:4326", 2 "epsg:4326", 3 its WKT, 4 the upper-cased WKT (not a CRS),
    5 and 6 two PROJ strings of a lon/lat WGS84 system (pyproj-equal to each other, identified
    as EPSG:4326 by to_epsg(), not pyproj-equal to EPSG:4326 because of the axis order) *)
Definition toy_valid (t : Z) : bool := (t =? 1) || (t =? 2) || (t =? 3) || (t =? 5) || (t =? 6).
Definition toy_cls (t : Z) : Z := if (t =? 1) || (t =? 2) || (t =? 3) then 1 else if t =? 6 then 5 else t.
Definition toy : oracle := mkOracle
  (fun t => if t =? 2 then 1 else if t =? 3 then 4 else t)
  (fun t => t =? 1)
  (fun _ => 4326)
  (fun n => if n =? 4326 then 1 else 0)
  (fun t => if toy_valid t then Some t else None)
  (fun s => if (s =? 1) || (s =? 2) || (s =? 3) then 3 else - s - 10)
  (fun a b => toy_cls a =? toy_cls b)
  (fun s => if toy_valid s then Some 4326 else None).

Lemma toy_contracts : contracts toy.
Proof.
  constructor; unfold toy; simpl.
  - intros a. apply Z.eqb_refl.
  - intros a b H. rewrite Z.eqb_sym. exact H.
  - intros a b c H1 H2. apply Z.eqb_eq in H1, H2. apply Z.eqb_eq. congruence.
  - intros t. destruct (Z.eqb_spec t 2) as [->|N2]; [reflexivity|].
    destruct (Z.eqb_spec t 3) as [->|N3]; [reflexivity|].
    destruct (Z.eqb_spec t 2); [contradiction|]. destruct (Z.eqb_spec t 3); [contradiction|]. reflexivity.
  - intros t H. apply Z.eqb_eq in H. subst. reflexivity.
  - intros n r. destruct (Z.eqb_spec n 4326) as [->|N]; [intros _; repeat split|]. simpl. discriminate.
  - intros t r _. destruct (toy_valid t); intros H; inversion H; reflexivity.
  - intros t H _. apply Z.eqb_eq in H. rewrite H. split; [reflexivity|].
    destruct (Z.eqb_spec t 2) as [E2|N2]; [subst; reflexivity|].
    destruct (Z.eqb_spec t 3) as [E3|N3]; [subst; discriminate|]. subst. reflexivity.
  - intros t r. destruct (toy_valid t) eqn:V; intros H; inversion H; subst. rewrite V. reflexivity.
  - intros s _ _ H. destruct (toy_valid s); [reflexivity|discriminate].
  - intros s H _ _. apply Z.eqb_eq in H. rewrite H. reflexivity.
  - intros a b n m _. destruct (toy_valid a); [|discriminate]. destruct (toy_valid b); [|discriminate].
    intros H1 H2 _ _. inversion H1; inversion H2; congruence.
Qed.

(** a history that reaches a state with a cached transformer *)
Definition demo_history : list op :=
  [OpCRS (SpStr 1) 100; OpCRS (SpStr 3) 101; OpNewPy 5 102; OpCRS (SpPy 0) 0; OpTransformer 0 1 true; OpDropPy 0; OpGc].
