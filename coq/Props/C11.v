(** Property C11 — the output grid computed for another CRS encloses the source.

    Statements, each followed by [Print Assumptions]; the proofs are a few
    lines from the lemmas of Proofs/OutGeoboxProofs.v.

    Model: Model/OutGeobox.v ([compute_output_geobox] and everything below it,
    floats as exact rationals).  Inputs that come out of shapely / pyproj are
    arguments of the model and universally quantified here:
      [B]    bounding box of the buffered (0.9 source pixel), densified
             (100 points per side), projected footprint;
      [dst]/[du]  the CRS of that box and its units (integers name CRSs / unit tuples);
      [fit]  the centre-pixel fitted pixel size; [rr] the round_resolution hook;
      UTM candidates with overlap fractions, zone letters.
    Vocabulary (Proofs/OutGeoboxProofs.v): [px g], [py g] = |pixel size|;
    [g_left .. g_top] = bounding box of the grid; [covers B tol g] = the grid
    misses at most [tol] pixel of [B] per side; [snug B g] = it is less than a
    pixel larger than needed on every side, except that on the high side of an
    axis the bound is dropped when that axis has a single pixel, the minimum;
    [aligned sx sy g] = every pixel edge is at
    (integer + s) * pixel size; [starts_at_box B g] = unsnapped origin;
    [chosen] = the resolution decision table; [rounded] = rounding hook. *)
From Coq Require Import ZArith QArith Qabs List Bool Lia Lqa.
From OG Require Import Base.Result Model.OutGeobox Proofs.MathHBasics Proofs.OutGeoboxProofs.
Import ListNotations.
Open Scope Q_scope.

(** ** 1. Same CRS with default options: the source object itself *)
Theorem C11_same_crs_defaults_identity :
  forall s du B fit rq tight tol rr,
    s_isgeobox s = true -> rq = RAuto \/ rq = RSame ->
    compute_output_geobox s (s_crs s) du B fit rq None tight (AStr SDefault) tol rr = Ok OSame.
Proof. intros * H1 H2. apply cog_same_iff. auto. Qed.
Print Assumptions C11_same_crs_defaults_identity.

(** ... and in no other situation *)
Theorem C11_identity_only_for_defaults :
  forall s dst du B fit rq shape tight anc tol rr,
    compute_output_geobox s dst du B fit rq shape tight anc tol rr = Ok OSame ->
    dst = s_crs s /\ (rq = RAuto \/ rq = RSame) /\ shape = None /\ anc = AStr SDefault /\
    s_isgeobox s = true.
Proof. intros *. apply cog_same_iff. Qed.
Print Assumptions C11_identity_only_for_defaults.

(** ** 2. Every computed grid is axis aligned, in the requested CRS (no hypotheses) *)
Theorem C11_axis_aligned_in_requested_crs :
  forall s dst du B fit rq shape tight anc tol rr g,
    compute_output_geobox s dst du B fit rq shape tight anc tol rr = Ok (ONew g) ->
    (ab (g_aff g) == 0 /\ ad (g_aff g) == 0) /\ g_crs g = dst.
Proof.
  intros s dst du B fit rq shape tight anc tol rr g H. destruct shape as [[n|ny nx]|].
  2: { destruct (cog_yx_inv _ _ _ _ _ _ _ _ _ _ _ _ _ H) as (na & m & _ & -> & _ & _ & A & _).
       split; [exact A | reflexivity]. }
  all: destruct (cog_build _ _ _ _ _ _ _ _ _ _ _ _ H I) as (na & rx & ry & _ & Hb & _);
    destruct (build_props _ _ _ _ _ _ _ Hb) as (C & A & _); auto.
Qed.
Print Assumptions C11_axis_aligned_in_requested_crs.

(** ** 3. Resolution decision table (no shape requested) *)
Theorem C11_resolution_decision_table :
  forall s dst du B fit rq tight anc tol rr g,
    compute_output_geobox s dst du B fit rq None tight anc tol rr = Ok (ONew g) ->
    exists rx ry,
      aa (g_aff g) == rx /\ ae (g_aff g) == ry /\
      match rq with
      | RSame => (rx, ry) = s_res s
      | RAuto => if Z.eqb (s_units s) du then (rx, ry) = s_res s
                 else rx = rounded rr fit /\ ry = - rounded rr fit
      | RFit => rx = rounded rr fit /\ ry = - rounded rr fit
      | RNum q => rx = q /\ ry = - q
      | RXY x y => rx = x /\ ry = y
      | RStr => False
      end.
Proof.
  intros s dst du B fit rq tight anc tol rr g H.
  destruct (cog_resolution _ _ _ _ _ _ _ _ _ _ _ H) as (rx & ry & C & A1 & A2).
  exists rx, ry. split; [exact A1|]. split; [exact A2|]. unfold chosen in C.
  destruct rq; try destruct (Z.eqb (s_units s) du); try split; congruence.
Qed.
Print Assumptions C11_resolution_decision_table.

(** when source and target share units the default resolution is the source resolution *)
Theorem C11_same_units_default_is_source_resolution :
  forall s dst B fit tight anc tol rr g,
    compute_output_geobox s dst (s_units s) B fit RAuto None tight anc tol rr = Ok (ONew g) ->
    aa (g_aff g) == fst (s_res s) /\ ae (g_aff g) == snd (s_res s).
Proof.
  intros s dst B fit tight anc tol rr g H.
  destruct (cog_resolution _ _ _ _ _ _ _ _ _ _ _ H) as (rx & ry & C & A1 & A2).
  unfold chosen in C. rewrite Z.eqb_refl in C. injection C as ->. auto.
Qed.
Print Assumptions C11_same_units_default_is_source_resolution.

(** a resolution string other than same / auto / fit is a ValueError *)
Theorem C11_invalid_resolution_string :
  forall s dst du B fit tight anc tol rr,
    compute_output_geobox s dst du B fit RStr None tight anc tol rr = Err EValue.
Proof.
  intros. unfold compute_output_geobox. simpl. rewrite andb_false_r. reflexivity.
Qed.
Print Assumptions C11_invalid_resolution_string.

(** round_resolution=True is Python's round(): nearest integer, ties to even *)
Theorem C11_round_half_even :
  forall x,
    let z := inject_Z (round_half_even x) in
    x - (1 # 2) <= z /\ z <= x + (1 # 2) /\
    ((z == x - (1 # 2) \/ z == x + (1 # 2)) -> Z.even (round_half_even x) = true).
Proof. exact round_half_even_spec. Qed.
Print Assumptions C11_round_half_even.

(** ** 4. The result covers the footprint box up to [tol] pixel per side
       (resolution-driven requests and a single-number shape), with at least
       one pixel per axis, and is less than one pixel larger than needed: on
       the low side (left, bottom) always, on the high side (right, top) unless
       that axis has a single pixel *)
Theorem C11_covers_footprint_box :
  forall s dst du B fit rq shape tight anc tol rr g,
    compute_output_geobox s dst du B fit rq shape tight anc tol rr = Ok (ONew g) ->
    not_yx shape -> valid_box B -> 0 <= tol ->
    (1 <= g_nx g)%Z /\ (1 <= g_ny g)%Z /\ 0 < px g /\ 0 < py g /\
    (g_left g <= bl B + tol * px g /\ br B - tol * px g <= g_right g /\
     g_bottom g <= bb B + tol * py g /\ bt B - tol * py g <= g_top g) /\
    (bl B - px g < g_left g /\ (g_right g < br B + px g \/ g_nx g = 1%Z) /\
     bb B - py g < g_bottom g /\ (g_top g < bt B + py g \/ g_ny g = 1%Z)).
Proof.
  intros s dst du B fit rq shape tight anc tol rr g H NY V Ht.
  destruct (cog_grid _ _ _ _ _ _ _ _ _ _ _ _ H NY V Ht) as (na & _ & P). exact (grid_covers _ _ _ _ P).
Qed.
Print Assumptions C11_covers_footprint_box.

(** ** 5. Enclosure of every projected source pixel, from the footprint contract.
       [P x y]: (x, y) is the projection of a point of some source pixel. *)
Theorem C11_encloses_projected_source_pixels :
  forall (P : Q -> Q -> Prop) (B : bbox),
    (forall x y, P x y -> bl B <= x /\ x <= br B /\ bb B <= y /\ y <= bt B) ->
    forall s dst du fit rq shape tight anc tol rr g,
      compute_output_geobox s dst du B fit rq shape tight anc tol rr = Ok (ONew g) ->
      not_yx shape -> valid_box B -> 0 <= tol ->
      forall x y, P x y ->
        g_left g - tol * px g <= x /\ x <= g_right g + tol * px g /\
        g_bottom g - tol * py g <= y /\ y <= g_top g + tol * py g.
Proof.
  intros P B FC s dst du fit rq shape tight anc tol rr g H NY V Ht x y Hp.
  destruct (C11_covers_footprint_box _ _ _ _ _ _ _ _ _ _ _ _ H NY V Ht) as (_ & _ & _ & _ & (C1 & C2 & C3 & C4) & _).
  destruct (FC x y Hp) as (F1 & F2 & F3 & F4). repeat split; lra.
Qed.
Print Assumptions C11_encloses_projected_source_pixels.

(** ** 6. Alignment *)
(** default anchor: all pixel edges are integer multiples of the pixel size *)
Theorem C11_default_anchor_edges_are_multiples :
  forall s dst du B fit rq shape tol rr g,
    compute_output_geobox s dst du B fit rq shape false (AStr SDefault) tol rr = Ok (ONew g) ->
    not_yx shape -> valid_box B -> 0 <= tol ->
    forall i : Z,
      (exists k : Z, g_x0 g + inject_Z i * aa (g_aff g) == inject_Z k * px g) /\
      (exists k : Z, g_y0 g + inject_Z i * ae (g_aff g) == inject_Z k * py g).
Proof.
  intros s dst du B fit rq shape tol rr g H NY V Ht i.
  destruct (cog_alignment _ _ _ _ _ _ _ _ _ _ _ _ H NY V Ht) as (na & Ha & A).
  simpl in Ha. injection Ha as <-. destruct (A i) as [(k1 & K1) (k2 & K2)].
  split; [exists k1|exists k2]; lra.
Qed.
Print Assumptions C11_default_anchor_edges_are_multiples.

(** any anchor: edges at (integer + anchor fraction) * pixel size; floating or
    tight: the grid starts exactly at the footprint box *)
Theorem C11_alignment_as_requested :
  forall s dst du B fit rq shape tight anc tol rr g,
    compute_output_geobox s dst du B fit rq shape tight anc tol rr = Ok (ONew g) ->
    not_yx shape -> valid_box B -> 0 <= tol ->
    exists na, norm_anchor anc = Ok na /\
      match snap_of tight na with
      | Some (sx, sy) => aligned sx sy g
      | None => starts_at_box B g
      end.
Proof. exact cog_alignment. Qed.
Print Assumptions C11_alignment_as_requested.

Theorem C11_tight_ignores_anchor :
  forall s dst du B fit rq shape anc tol rr g,
    compute_output_geobox s dst du B fit rq shape true anc tol rr = Ok (ONew g) ->
    not_yx shape -> valid_box B -> 0 <= tol ->
    g_x0 g == (if Qltb 0 (aa (g_aff g)) then bl B else br B) /\
    g_y0 g == (if Qltb 0 (ae (g_aff g)) then bb B else bt B).
Proof.
  intros s dst du B fit rq shape anc tol rr g H NY V Ht.
  destruct (cog_alignment _ _ _ _ _ _ _ _ _ _ _ _ H NY V Ht) as (na & _ & A). exact A.
Qed.
Print Assumptions C11_tight_ignores_anchor.

(** which snap offsets each way of writing the anchor means *)
Theorem C11_anchor_table :
  (forall na, snap_of true na = None) /\
  snap_of false NEdge = Some (0, 0) /\ snap_of false NCenter = Some (1 # 2, 1 # 2) /\
  snap_of false NFloating = None /\ (forall x y, snap_of false (NXY x y) = Some (x, y)) /\
  norm_anchor (AStr SDefault) = Ok NEdge /\ norm_anchor (AStr SEdge) = Ok NEdge /\
  norm_anchor AEnumEdge = Ok NEdge /\ norm_anchor (AStr SCenter) = Ok NCenter /\
  norm_anchor (AStr SCentre) = Ok NCenter /\ norm_anchor AEnumCenter = Ok NCenter /\
  norm_anchor (AStr SFloating) = Ok NFloating /\ norm_anchor AEnumFloating = Ok NFloating /\
  (forall x y, norm_anchor (AXY x y) = Ok (NXY x y)) /\
  (forall q, q == 0 -> norm_anchor (ANum q) = Ok NEdge) /\
  (forall q, q == 1 # 2 -> norm_anchor (ANum q) = Ok NCenter) /\
  (forall q, ~ q == 0 -> ~ q == 1 # 2 -> norm_anchor (ANum q) = Ok (NXY q q)).
Proof.
  repeat split; try reflexivity; unfold norm_anchor.
  - intros q E. apply Qeq_bool_iff in E. rewrite E. reflexivity.
  - intros q E. rewrite (QZ.Qeq_bool_false q 0), (proj2 (Qeq_bool_iff _ _) E); [reflexivity|].
    intros C. rewrite C in E. discriminate.
  - intros q E F. rewrite (QZ.Qeq_bool_false _ _ E), (QZ.Qeq_bool_false _ _ F). reflexivity.
Qed.
Print Assumptions C11_anchor_table.

(** ** 7. Shape requests *)
(** (ny, nx): exactly that shape, pixel size = span / shape (y inverted),
    displaced from the footprint box by less than one pixel, not at all
    without snapping, otherwise snapped as requested *)
Theorem C11_explicit_shape :
  forall s dst du B fit rq ny nx tight anc tol rr g,
    compute_output_geobox s dst du B fit rq (Some (ShapeYX ny nx)) tight anc tol rr = Ok (ONew g) ->
    valid_box B -> 0 <= tol -> (0 < nx)%Z -> (0 < ny)%Z ->
    g_ny g = ny /\ g_nx g = nx /\ g_crs g = dst /\ (ab (g_aff g) == 0 /\ ad (g_aff g) == 0) /\
    aa (g_aff g) == span_x B / inject_Z nx /\ ae (g_aff g) == - (span_y B / inject_Z ny) /\
    Qabs (g_x0 g - bl B) < px g /\ Qabs (g_y0 g - bt B) < py g /\
    exists na, norm_anchor anc = Ok na /\
      match snap_of tight na with
      | None => g_x0 g == bl B /\ g_y0 g == bt B
      | Some (sx, sy) => aligned sx sy g
      end.
Proof. exact cog_shape_yx. Qed.
Print Assumptions C11_explicit_shape.

(** a single number n: square pixels of size (longest side of the footprint
    box) / n, y inverted — the footprint spans exactly n pixels along its
    longest side; the grid has exactly n pixels there when it is not snapped
    (tight / floating) and, for tol < 1/2, n or n+1 when the origin is snapped to the anchor.
    (Covering, alignment and enclosure for this request: theorems 4-6.) *)
Theorem C11_longest_side_shape :
  forall s dst du B fit rq n tight anc tol rr g,
    compute_output_geobox s dst du B fit rq (Some (ShapeN n)) tight anc tol rr = Ok (ONew g) ->
    valid_box B -> 0 <= tol -> (0 < n)%Z ->
    0 < aa (g_aff g) /\ ae (g_aff g) == - aa (g_aff g) /\
    (span_y B < span_x B -> aa (g_aff g) == span_x B / inject_Z n) /\
    (span_x B <= span_y B -> aa (g_aff g) == span_y B / inject_Z n) /\
    (tol < 1 # 2 -> (n <= longest_count B g <= n + 1)%Z) /\
    (forall na, norm_anchor anc = Ok na -> snap_of tight na = None -> longest_count B g = n).
Proof. exact cog_shape_n. Qed.
Print Assumptions C11_longest_side_shape.

(** ** 8. Inside the domain the computation succeeds (so 2-7 are not vacuous) *)
Theorem C11_total_in_domain :
  forall s dst du B fit rq shape tight anc tol rr,
    valid_box B -> 0 <= tol -> anchor_valid anc -> shape_valid shape ->
    (shape = None -> exists rx ry, chosen s du fit rq rr = Ok (rx, ry) /\ ~ rx == 0 /\ ~ ry == 0) ->
    exists o, compute_output_geobox s dst du B fit rq shape tight anc tol rr = Ok o.
Proof. exact cog_total. Qed.
Print Assumptions C11_total_in_domain.

(** ** 9. 'utm' / 'utm-n' / 'utm-s' *)
(** the zone is the candidate with the largest overlap with the raster's
    lon/lat box (first one on ties); no candidate: ValueError ([pick_best_empty] in
    Proofs/OutGeoboxProofs.v) *)
Theorem C11_utm_zone_choice :
  forall cands big e,
    pick_best_crs cands big = Ok e ->
    exists c, In c cands /\ fst c = e /\ (big = true -> forall c', In c' cands -> snd c' <= snd c).
Proof. exact pick_best_spec. Qed.
Print Assumptions C11_utm_zone_choice.

(** hemisphere table: given that the database candidates are EPSG 326zz
    (letter N) / 327zz (letter S), 'utm' is the chosen zone as is, 'utm-n' its
    northern and 'utm-s' its southern code *)
Theorem C11_utm_hemisphere :
  forall rq cands big letter zone r,
    utm_db_ok cands letter zone ->
    norm_crs_utm rq cands big letter = Ok r ->
    exists e, pick_best_crs cands big = Ok e /\ In e (map fst cands) /\
      match rq with
      | Utm => r = e
      | UtmN => r = (32600 + zone e)%Z
      | UtmS => r = (32700 + zone e)%Z
      end.
Proof.
  intros rq cands big letter zone r DB H. unfold norm_crs_utm in H. apply bind_ok in H as (e & He & H).
  destruct (pick_best_spec _ _ _ He) as (c & Ic & <- & _). pose proof (in_map fst _ _ Ic) as Ie.
  exists (fst c). split; [exact He|]. split; [exact Ie|].
  destruct rq; [injection H as <-; reflexivity| |];
    destruct (DB _ Ie) as [[L E]|[L E]]; rewrite L in H; injection H as <-; lia.
Qed.
Print Assumptions C11_utm_hemisphere.

(** ** 10. The footprint request behind [B] (model of the repaired code)
       buffer: at least [b] pixels along both axes whatever the signs of the
       resolution; before repair b8c684a (max of the signed components) a
       mirrored grid was shrunk instead: refuted statement below.
       densification: 100..10000 points per side, segments shorter than 256
       pixels up to 2.56 million pixels per side (repair e8f8707). *)
Theorem C11_footprint_buffer_grows :
  forall b rx ry, 0 < b -> ~ rx == 0 -> ~ ry == 0 ->
    0 < footprint_buffer b (rx, ry) /\
    b * Qabs rx <= footprint_buffer b (rx, ry) /\ b * Qabs ry <= footprint_buffer b (rx, ry).
Proof.
  intros b rx ry Hb Hx%QZ.Qabs_nonzero Hy%QZ.Qabs_nonzero. unfold footprint_buffer. cbn [fst snd].
  destruct (qminmax_spec (Qabs rx) (Qabs ry)) as [(L & _ & ->)|(L & _ & ->)]; repeat split; nra.
Qed.
Print Assumptions C11_footprint_buffer_grows.

Theorem C11_footprint_buffer_unrepaired_refuted :
  exists rs, ~ fst rs == 0 /\ ~ snd rs == 0 /\ footprint_buffer_unrepaired (9 # 10) rs < 0.
Proof.
  exists (-(10 # 1), -(10 # 1)). cbn [fst snd]. split; [intros C; discriminate|]. split; [intros C; discriminate|].
  vm_compute. reflexivity.
Qed.
Print Assumptions C11_footprint_buffer_unrepaired_refuted.

Theorem C11_footprint_densification :
  forall ny nx,
    (100 <= footprint_npoints ny nx <= 10000)%Z /\
    (Z.max ny nx < 256 * 10001 -> Z.max ny nx < 256 * (footprint_npoints ny nx + 1))%Z.
Proof.
  intros ny nx. unfold footprint_npoints. set (n := Z.max ny nx).
  pose proof (Z.div_mod n 256 ltac:(lia)). pose proof (Z.mod_pos_bound n 256 ltac:(lia)). lia.
Qed.
Print Assumptions C11_footprint_densification.

(** ** Non-vacuity: concrete instances inside the hypotheses *)
Definition ex_src := mkSrc true 32630 1 (10, -10).
Definition ex_B := mkBox (-(25 # 4)) (35 # 1) (-(5 # 1)) (145 # 4).

Example C11_ex_identity :
  compute_output_geobox ex_src 32630 1 ex_B 1 RAuto None false (AStr SDefault) (1 # 100) RRNone = Ok OSame.
Proof. vm_compute. reflexivity. Qed.

(** fit to degrees, 1/64 degree pixels: 80 x 80 pixels, origin (-6.25, 36.25) *)
Example C11_ex_fit :
  exists g, compute_output_geobox ex_src 4326 2 ex_B (1 # 64) RAuto None false (AStr SDefault) (1 # 100) RRNone
            = Ok (ONew g) /\ g_nx g = 80%Z /\ g_ny g = 80%Z /\ g_x0 g == -(25 # 4) /\ g_y0 g == 145 # 4
            /\ valid_box ex_B.
Proof.
  eexists. split; [vm_compute; reflexivity|]. cbn. repeat split; reflexivity.
Qed.

Example C11_ex_shape :
  exists g, compute_output_geobox ex_src 4326 2 ex_B 1 RAuto (Some (ShapeN 10)) true (AStr SDefault) (1 # 100) RRNone
            = Ok (ONew g) /\ longest_count ex_B g = 10%Z.
Proof. eexists. split; [vm_compute; reflexivity|]. vm_compute. reflexivity. Qed.

Example C11_ex_utm :
  norm_crs_utm UtmS [(32630%Z, 1 # 2); (32631%Z, 1 # 3)] true (fun _ => ZN) = Ok 32730%Z /\
  utm_db_ok [(32630%Z, 1 # 2); (32631%Z, 1 # 3)] (fun _ => ZN) (fun e => (e - 32600)%Z).
Proof.
  split; [reflexivity|]. intros e [<-|[<-|[]]]; left; split; reflexivity.
Qed.
