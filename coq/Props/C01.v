(** Property C01 — operations never silently mix coordinate reference systems.
    Statements, proved from the lemmas of Proofs/CrsGateProofs.v, + [Print Assumptions].

    [crs] with [crs_eqb] (odc.geo.crs.CRS.__eq__: identity, EPSG code, string, pyproj
    equality) is an arbitrary type with an arbitrary boolean relation: NOTHING is assumed
    about it (not even reflexivity) — each theorem names the comparison the code makes, in
    the operand order the code uses.  A tag is [option crs]; [tag_ne crs_eqb a b] is Python's
    [a != b]: False for None/None, True for None/Some and Some/None, [negb (crs_eqb x y)]
    otherwise.  [G] are raw shapely geometries, [R] the non-geometry results of shapely;
    every raw shapely function ([f], [method], [fsplit], [fmulti], [funion], [finter]) is
    universally quantified.  [Err ECrs] is CRSMismatchError, [Err EValue] a plain ValueError;
    both satisfy [is_value_error]. *)
From Coq Require Import ZArith QArith List Bool.
From OG Require Import Base.Result Base.Aff2 Model.Tagged Model.CrsGate Model.GridOps Proofs.CrsGateProofs.
From OG Require Proofs.GridOpsProofs.
Import ListNotations.

(** ** the 16 decorated binary methods (predicates, set operations, operators): CRSs differ ->
    CRSMismatchError; equal -> exactly shapely's answer on the raw shapes, geometries re-tagged
    with the first operand's CRS, other results (bool) passed through *)
Theorem C01_wrapped_binary_method :
  forall (crs : Type) (crs_eqb : crs -> crs -> bool) (G R : Type) (f : G -> G -> G + R) (a b : geom crs G),
    binop crs_eqb f a b =
    (if tag_ne crs_eqb (gtag a) (gtag b) then Err ECrs
     else Ok (retag (gtag a) (f (ggeom a) (ggeom b)))).
Proof. exact binop_spec. Qed.
Print Assumptions C01_wrapped_binary_method.

(** the decorator itself, for a method with any number of operands *)
Theorem C01_wrap_shapely_any_arity :
  forall (crs : Type) (crs_eqb : crs -> crs -> bool) (G R : Type)
         (method : G -> list G -> G + R) (first : geom crs G) (rest : list (geom crs G)),
    (mismatch_after crs_eqb (gtag first) (map gtag rest) -> wrapped crs_eqb method first rest = Err ECrs) /\
    (~ mismatch_after crs_eqb (gtag first) (map gtag rest) ->
       wrapped crs_eqb method first rest = Ok (retag (gtag first) (method (ggeom first) (map ggeom rest)))).
Proof.
  intros. rewrite mismatch_after_iff. unfold wrapped. rewrite gate_eq.
  destruct (existsb _ _); simpl; split; congruence.
Qed.
Print Assumptions C01_wrap_shapely_any_arity.

Theorem C01_wrap_shapely_never_mixes :
  forall (crs : Type) (crs_eqb : crs -> crs -> bool) (G R : Type)
         (method : G -> list G -> G + R) (first : geom crs G) (rest : list (geom crs G)) (w : wres crs G R),
    wrapped crs_eqb method first rest = Ok w ->
    (forall a, In a rest -> tag_ne crs_eqb (gtag first) (gtag a) = false) /\
    w = retag (gtag first) (method (ggeom first) (map ggeom rest)).
Proof.
  intros crs crs_eqb G R method first rest w. unfold wrapped. rewrite gate_eq.
  destruct (existsb _ _) eqn:E; [discriminate|]. intros [= <-].
  split; [intros a Ha; exact (proj1 (GridOpsProofs.existsb_false_iff _ _) E _ (in_map gtag _ _ Ha)) | reflexivity].
Qed.
Print Assumptions C01_wrap_shapely_never_mixes.

(** ** Geometry.split *)
Theorem C01_split :
  forall (crs : Type) (crs_eqb : crs -> crs -> bool) (G : Type) (fsplit : G -> G -> list G)
         (self splitter : geom crs G),
    split crs_eqb fsplit self splitter =
    (if tag_ne crs_eqb (gtag splitter) (gtag self) then Err ECrs
     else Ok (map (fun g => mkGeom g (gtag self)) (fsplit (ggeom self) (ggeom splitter)))).
Proof. reflexivity. Qed.
Print Assumptions C01_split.

(** ** n-ary folds: Err iff some element's CRS differs from the first, lists of any length *)
Theorem C01_common_crs_multigeom :
  forall (crs : Type) (crs_eqb : crs -> crs -> bool) (G : Type) (fmulti : list G -> G)
         (first : geom crs G) (rest : list (geom crs G)),
    (mismatch_before crs_eqb (gtag first) (map gtag rest) ->
       common_crs crs_eqb (first :: rest) = Err ECrs /\ multigeom crs_eqb fmulti (first :: rest) = Err ECrs) /\
    (~ mismatch_before crs_eqb (gtag first) (map gtag rest) ->
       common_crs crs_eqb (first :: rest) = Ok (gtag first) /\
       multigeom crs_eqb fmulti (first :: rest) = Ok (mkGeom (fmulti (map ggeom (first :: rest))) (gtag first))).
Proof.
  intros. rewrite mismatch_before_iff. unfold multigeom, common_crs. simpl. rewrite common_loop_eq.
  destruct (existsb _ _); simpl; split; intros H; split; congruence.
Qed.
Print Assumptions C01_common_crs_multigeom.

Theorem C01_unary_union :
  forall (crs : Type) (crs_eqb : crs -> crs -> bool) (G : Type) (funion : list G -> G)
         (first : geom crs G) (rest : list (geom crs G)),
    (mismatch_after crs_eqb (gtag first) (map gtag rest) ->
       unary_union crs_eqb funion (first :: rest) = Err ECrs) /\
    (~ mismatch_after crs_eqb (gtag first) (map gtag rest) ->
       unary_union crs_eqb funion (first :: rest) =
       Ok (Some (mkGeom (funion (map ggeom (first :: rest))) (gtag first)))).
Proof.
  intros. rewrite mismatch_after_iff. unfold unary_union. rewrite gate_eq.
  destruct (existsb _ _); simpl; split; congruence.
Qed.
Print Assumptions C01_unary_union.

(** unary_intersection = reduce(Geometry.intersection): under shapely's contract that the
    intersection of two geometries is a geometry, the result is the left fold of the raw
    intersection, tagged with the first CRS *)
Theorem C01_unary_intersection :
  forall (crs : Type) (crs_eqb : crs -> crs -> bool) (G R : Type) (finter : G -> G -> G + R),
    (forall x y, exists g, finter x y = inl g) ->
  forall (first : geom crs G) (rest : list (geom crs G)),
    (mismatch_after crs_eqb (gtag first) (map gtag rest) ->
       unary_intersection crs_eqb finter (first :: rest) = Err ECrs) /\
    (~ mismatch_after crs_eqb (gtag first) (map gtag rest) ->
       unary_intersection crs_eqb finter (first :: rest) =
       Ok (mkGeom (fold_left (raw_inter finter) (map ggeom rest) (ggeom first)) (gtag first))).
Proof.
  intros crs crs_eqb G R finter Hf first rest. rewrite mismatch_after_iff.
  unfold unary_intersection. rewrite (reduce_inter_eq _ _ _ _ _ Hf).
  destruct (existsb _ _); simpl; split; congruence.
Qed.
Print Assumptions C01_unary_intersection.

(** ... and with no contract at all on shapely no value is ever built across a mismatch *)
Theorem C01_unary_intersection_never_mixes :
  forall (crs : Type) (crs_eqb : crs -> crs -> bool) (G R : Type) (finter : G -> G -> G + R)
         (rest : list (geom crs G)) (first r : geom crs G),
    unary_intersection crs_eqb finter (first :: rest) = Ok r ->
    (forall a, In a rest -> tag_ne crs_eqb (gtag first) (gtag a) = false) /\ gtag r = gtag first.
Proof. exact unary_intersection_ok_inv. Qed.
Print Assumptions C01_unary_intersection_never_mixes.

(** module-level intersects(a, b) *)
Theorem C01_intersects_function :
  forall (crs : Type) (crs_eqb : crs -> crs -> bool) (G R : Type) (fint ftouch : G -> G -> G + R)
         (truthy : wres crs G R -> bool) (a b : geom crs G),
    (tag_ne crs_eqb (gtag a) (gtag b) = true -> intersects2 crs_eqb fint ftouch truthy a b = Err ECrs) /\
    (tag_ne crs_eqb (gtag a) (gtag b) = false ->
       intersects2 crs_eqb fint ftouch truthy a b =
       Ok (truthy (retag (gtag a) (fint (ggeom a) (ggeom b))) &&
           negb (truthy (retag (gtag a) (ftouch (ggeom a) (ggeom b)))))).
Proof.
  intros. unfold intersects2. rewrite !binop_spec. split; intros H; rewrite H; simpl; [reflexivity|].
  destruct (truthy _); reflexivity.
Qed.
Print Assumptions C01_intersects_function.

(** ** bbox_union / bbox_intersection (and BoundingBox | &), any coordinate type and min/max:
    CRSMismatchError iff some box after the first differs from the first; otherwise a box
    tagged with the first CRS; an Ok value is never built from a stream with a mismatch *)
Theorem C01_bbox_folds :
  forall (crs : Type) (crs_eqb : crs -> crs -> bool) (A : Type) (lo hi : A -> A -> A)
         (first : bbox crs A) (rest : list (bbox crs A)),
    (box_mismatch crs_eqb (bcrs first) rest <-> bbox_union crs_eqb lo hi (first :: rest) = Err ECrs) /\
    (box_mismatch crs_eqb (bcrs first) rest <-> bbox_intersection crs_eqb lo hi (first :: rest) = Err ECrs) /\
    (~ box_mismatch crs_eqb (bcrs first) rest ->
       exists u i, bbox_union crs_eqb lo hi (first :: rest) = Ok u /\
                   bbox_intersection crs_eqb lo hi (first :: rest) = Ok i /\
                   bcrs u = bcrs first /\ bcrs i = bcrs first).
Proof.
  intros crs crs_eqb A lo hi first rest. unfold box_mismatch.
  rewrite <- existsb_exists, GridOpsProofs.bbox_intersection_swap.
  unfold bbox_union. rewrite !GridOpsProofs.union_loop_eq. destruct (existsb _ rest).
  - split; [split; auto|]. split; [split; auto|]. intros N. contradiction N. reflexivity.
  - split; [split; discriminate|]. split; [split; discriminate|]. intros _. eexists _, _. auto.
Qed.
Print Assumptions C01_bbox_folds.

Theorem C01_bbox_folds_never_mix :
  forall (crs : Type) (crs_eqb : crs -> crs -> bool) (A : Type) (lo hi : A -> A -> A)
         (first : bbox crs A) (rest : list (bbox crs A)) (u : bbox crs A),
    bbox_union crs_eqb lo hi (first :: rest) = Ok u \/ bbox_intersection crs_eqb lo hi (first :: rest) = Ok u ->
    (forall x, In x rest -> tag_ne crs_eqb (bcrs first) (bcrs x) = false) /\ bcrs u = bcrs first.
Proof.
  intros crs crs_eqb A lo hi first rest u.
  rewrite GridOpsProofs.bbox_intersection_swap. unfold bbox_union. rewrite !GridOpsProofs.union_loop_eq.
  destruct (existsb _ rest) eqn:E; intros [[= <-] | [= <-]];
    (split; [apply GridOpsProofs.existsb_false_iff, E | reflexivity]).
Qed.
Print Assumptions C01_bbox_folds_never_mix.

(** ** GeoBox operations (all through pixel_translation): a CRS difference is a ValueError
    before any grid arithmetic; union/intersection of any number of GeoBoxes never return a
    value built from a list containing a mismatch *)
Theorem C01_geobox_pair_mismatch :
  forall (crs : Type) (crs_eqb : crs -> crs -> bool) (atol rtol tol : Q) (fx : fixes) (a b : geobox crs),
    tag_ne crs_eqb (gcrs b) (gcrs a) = true ->
    pixel_translation crs_eqb atol rtol b a = Err EValue /\
    bbox_in_pix crs_eqb atol rtol tol b a = Err EValue /\
    overlap_roi crs_eqb fx atol rtol tol a b = Err EValue /\
    snap_to crs_eqb atol rtol tol a b = Err EValue.
Proof. exact geobox_pair_mismatch. Qed.
Print Assumptions C01_geobox_pair_mismatch.

Theorem C01_geobox_union_intersection_never_mix :
  forall (crs : Type) (crs_eqb : crs -> crs -> bool) (atol rtol tol : Q)
         (ref : geobox crs) (gs : list (geobox crs)) (u : geobox crs),
    geobox_union crs_eqb atol rtol tol (ref :: gs) = Ok u \/
    geobox_intersection crs_eqb atol rtol tol (ref :: gs) = Ok u ->
    (forall g, In g (ref :: gs) -> tag_ne crs_eqb (gcrs g) (gcrs ref) = false) /\ gcrs u = gcrs ref.
Proof.
  intros crs crs_eqb atol rtol tol ref gs u. unfold geobox_union, geobox_intersection.
  intros [H | H];
    destruct (mapM (fun g => bbox_in_pix crs_eqb atol rtol tol g ref) (ref :: gs)) as [bbs|] eqn:E;
    simpl in H; try discriminate;
    (split; [intros g Hg; apply Result.mapM_In_fwd with (a := g) in E as (y & _ & Hy); [|exact Hg];
             apply (GridOpsProofs.bbox_in_pix_ok_inv _ _ _ _ _ _ _ _ Hy)|]).
  - destruct (bbox_union crs_eqb Z.min Z.max bbs); simpl in H; [|discriminate]. inversion H. reflexivity.
  - destruct (bbox_intersection crs_eqb Z.min Z.max bbs); simpl in H; [|discriminate]. inversion H. reflexivity.
Qed.
Print Assumptions C01_geobox_union_intersection_never_mix.

(** [a | b], [a & b]: the same ValueError when the first operand's affine is invertible (a
    degenerate one can fail earlier, in the affine inversion, with TransformNotInvertibleError) *)
Theorem C01_geobox_operators_mismatch :
  forall (crs : Type) (crs_eqb : crs -> crs -> bool) (atol rtol tol : Q) (a b : geobox crs),
    tag_ne crs_eqb (gcrs b) (gcrs a) = true -> ~ (aff_det (gaff a) == 0)%Q ->
    gbox_or crs_eqb atol rtol tol a b = Err EValue /\ gbox_and crs_eqb atol rtol tol a b = Err EValue.
Proof.
  intros crs crs_eqb atol rtol tol a b H Hd.
  destruct (geobox_pair_mismatch crs crs_eqb atol rtol tol fixed a b H) as (_ & Bp & _).
  unfold gbox_or, gbox_and, geobox_union, geobox_intersection. simpl mapM.
  destruct (bbox_in_pix crs_eqb atol rtol tol a a) as [x|e] eqn:E; simpl.
  - rewrite Bp. simpl. auto.
  - destruct (GridOpsProofs.bbox_in_pix_error_kind _ _ _ _ _ _ _ _ E) as [-> | (_ & _ & C)]; [auto | contradiction].
Qed.
Print Assumptions C01_geobox_operators_mismatch.

(** both error kinds are ValueErrors (CRSMismatchError subclasses ValueError: checked on
    the source by the static obligation of the check) *)
Theorem C01_errors_are_value_errors : is_value_error ECrs = true /\ is_value_error EValue = true.
Proof. split; reflexivity. Qed.
Print Assumptions C01_errors_are_value_errors.

(** when [crs_eqb] is symmetric (pyproj equality is; validated by the check on its tag set)
    the gate of a binary method does not depend on the operand order *)
Theorem C01_gate_symmetric :
  forall (crs : Type) (crs_eqb : crs -> crs -> bool) (G R : Type) (f f' : G -> G -> G + R) (a b : geom crs G),
    (forall x y, crs_eqb x y = crs_eqb y x) ->
    is_ok (binop crs_eqb f a b) = is_ok (binop crs_eqb f' b a).
Proof.
  intros crs crs_eqb G R f f' a b Hs. rewrite !binop_spec, (tag_ne_sym _ _ (gtag a) _ Hs).
  destruct (tag_ne _ _ _); reflexivity.
Qed.
Print Assumptions C01_gate_symmetric.

(** ** Non-vacuity: CRSs are integers compared up to parity ("same CRS, other spelling"):
    4326 spelled 0 or 2 are equal, 1 differs, and None differs from everything but None. *)
Open Scope Z_scope.
Definition ex_eqb (x y : Z) : bool := Z.even x && Z.even y || Z.odd x && Z.odd y.
Definition ex_f (x y : Z) : Z + bool := if (x <? 100)%Z then inl (x * 1000 + y)%Z else inr (x <? y)%Z.
Example C01_example :
  binop ex_eqb ex_f (mkGeom 7 (Some 0)) (mkGeom 9 (Some 2)) = Ok (WGeom (mkGeom 7009 (Some 0)))%Z /\
  binop ex_eqb ex_f (mkGeom 700 (Some 0)) (mkGeom 9 (Some 2)) = Ok (WRaw false) /\
  binop ex_eqb ex_f (mkGeom 7 (Some 0)) (mkGeom 9 (Some 1)) = Err ECrs /\
  binop ex_eqb ex_f (mkGeom 7 None) (mkGeom 9 (Some 0)) = Err ECrs /\
  binop ex_eqb ex_f (mkGeom 7 (Some 0)) (mkGeom 9 None) = Err ECrs /\
  binop ex_eqb ex_f (mkGeom 7 None) (mkGeom 9 None) = Ok (WGeom (mkGeom 7009 None))%Z /\
  mismatch_after ex_eqb (Some 0) [Some 2; Some 4; Some 1]%Z /\
  ~ mismatch_after ex_eqb (Some 0) [Some 2; Some 4]%Z /\
  unary_union ex_eqb (fun l => fold_left Z.add l 0%Z)
    [mkGeom 1 (Some 0); mkGeom 2 (Some 2); mkGeom 3 (Some 4)]%Z = Ok (Some (mkGeom 6 (Some 0)))%Z /\
  unary_union ex_eqb (fun l => fold_left Z.add l 0%Z)
    [mkGeom 1 (Some 0); mkGeom 2 (Some 2); mkGeom 3 None]%Z = Err ECrs.
Proof.
  repeat split; try (vm_compute; reflexivity).
  - exists (Some 1%Z). split; [simpl; auto | reflexivity].
  - intros (x & [<- | [<- | []]] & H); vm_compute in H; discriminate.
Qed.
