(** Property C14 — a GridSpec tiles the plane without gaps or overlaps.
    The lemmas are in Proofs/GridSpecProofs.v.  Floats are exact rationals.  A grid [g] is any
    value returned by the model of [GridSpec.__init__], [gs_new ny nx ry rx ox
    oy flipx flipy = Ok g] (tile shape [ny,nx], resolution [ry,rx], origin
    [ox,oy]); [tile_x g ix] / [tile_y g iy] are the intervals [_xbin[ix]] /
    [_ybin[iy]] whose product is the footprint of tile [(ix,iy)].
    [tol] is the constant 1e-8 of [idx_bounds] (any rational). *)
From Coq Require Import ZArith QArith Qabs List Bool.
From OG Require Import Base.Result Model.GridSpec Proofs.GridSpecProofs.
Import ListNotations.
Open Scope Q_scope.

(** construction succeeds exactly for positive sizes and directions +1/-1 *)
Theorem C14_bin_domain :
  forall sz origin dir,
    (exists b, bin_new sz origin dir = Ok b) <-> (0 < sz /\ (dir = 1%Z \/ dir = (-1)%Z)).
Proof.
  intros sz origin dir. split.
  - intros [b E]. apply bin_new_iff in E. apply E.
  - intros H. eexists. apply bin_new_succeeds; apply H.
Qed.
Print Assumptions C14_bin_domain.

(** [bin x = i] exactly for the points of the half-open interval [i] *)
Theorem C14_bin_point_lookup :
  forall sz origin dir b x i, bin_new sz origin dir = Ok b ->
    (bin_bin b x = i <-> fst (bin_getitem b i) <= x /\ x < snd (bin_getitem b i)).
Proof. intros sz origin dir b x i E. apply bin_iff, (bin_new_ok E). Qed.
Print Assumptions C14_bin_point_lookup.

(** every interval has width [sz]; consecutive indices share an endpoint exactly *)
Theorem C14_bin_neighbours_share_endpoint :
  forall sz origin dir b i, bin_new sz origin dir = Ok b ->
    snd (bin_getitem b i) == fst (bin_getitem b i) + sz /\
    (dir = 1%Z -> snd (bin_getitem b i) == fst (bin_getitem b (i + 1))) /\
    (dir = (-1)%Z -> fst (bin_getitem b i) == snd (bin_getitem b (i + 1))).
Proof.
  intros sz origin dir b i E. apply bin_new_iff in E. destruct E as [_ ->].
  split; [apply interval_width | exact (consecutive_share_endpoint (mkBin sz origin dir) i)].
Qed.
Print Assumptions C14_bin_neighbours_share_endpoint.

(** intervals of distinct indices have disjoint interiors *)
Theorem C14_bin_distinct_disjoint :
  forall sz origin dir b i j, bin_new sz origin dir = Ok b -> i <> j ->
    snd (bin_getitem b i) <= fst (bin_getitem b j) \/ snd (bin_getitem b j) <= fst (bin_getitem b i).
Proof. intros sz origin dir b i j E. apply distinct_disjoint, (bin_new_ok E). Qed.
Print Assumptions C14_bin_distinct_disjoint.

(** a grid can be built exactly for tile shapes >= 1 and non-zero resolutions
    (of either sign), for every origin and flip flags; otherwise AssertionError *)
Theorem C14_grid_domain :
  forall ny nx ry rx ox oy flipx flipy,
    (exists g, gs_new ny nx ry rx ox oy flipx flipy = Ok g) <->
    ((1 <= ny)%Z /\ (1 <= nx)%Z /\ ~ ry == 0 /\ ~ rx == 0).
Proof.
  intros ny nx ry rx ox oy flipx flipy. split.
  - intros [g E]. apply gs_new_iff in E. apply E.
  - intros H. eexists. apply gs_new_iff. split; [exact H | reflexivity].
Qed.
Print Assumptions C14_grid_domain.

Theorem C14_grid_domain_error :
  forall ny nx ry rx ox oy flipx flipy,
    ~ ((1 <= ny)%Z /\ (1 <= nx)%Z /\ ~ ry == 0 /\ ~ rx == 0) ->
    exists l, gs_new ny nx ry rx ox oy flipx flipy = Err (EAssert l).
Proof. exact gs_new_error. Qed.
Print Assumptions C14_grid_domain_error.

(** every point belongs to the tile that point lookup returns, and to no other *)
Theorem C14_point_lookup :
  forall ny nx ry rx ox oy flipx flipy g, gs_new ny nx ry rx ox oy flipx flipy = Ok g ->
  forall x y ix iy,
    pt2idx g x y = (ix, iy) <->
    (fst (tile_x g ix) <= x /\ x < snd (tile_x g ix)) /\
    (fst (tile_y g iy) <= y /\ y < snd (tile_y g iy)).
Proof. intros ny nx ry rx ox oy flipx flipy g E x y ix iy. apply pt2idx_iff, (gs_new_ok E). Qed.
Print Assumptions C14_point_lookup.

(** tiles with distinct indices have disjoint interiors (no point strictly inside both) ... *)
Theorem C14_distinct_tiles_disjoint_interiors :
  forall ny nx ry rx ox oy flipx flipy g, gs_new ny nx ry rx ox oy flipx flipy = Ok g ->
  forall ix iy jx jy x y, (ix, iy) <> (jx, jy) ->
    fst (tile_x g ix) < x < snd (tile_x g ix) -> fst (tile_y g iy) < y < snd (tile_y g iy) ->
    fst (tile_x g jx) < x < snd (tile_x g jx) -> fst (tile_y g jy) < y < snd (tile_y g jy) ->
    False.
Proof.
  intros ny nx ry rx ox oy flipx flipy g E ix iy jx jy x y.
  apply tiles_interiors_disjoint, (gs_new_ok E).
Qed.
Print Assumptions C14_distinct_tiles_disjoint_interiors.

(** ... because along an axis on which the indices differ one footprint ends
    where or before the other starts *)
Theorem C14_distinct_tiles_separated :
  forall ny nx ry rx ox oy flipx flipy g, gs_new ny nx ry rx ox oy flipx flipy = Ok g ->
  forall ix jx iy jy,
    (ix <> jx -> snd (tile_x g ix) <= fst (tile_x g jx) \/ snd (tile_x g jx) <= fst (tile_x g ix)) /\
    (iy <> jy -> snd (tile_y g iy) <= fst (tile_y g jy) \/ snd (tile_y g jy) <= fst (tile_y g iy)).
Proof.
  intros ny nx ry rx ox oy flipx flipy g E ix jx iy jy. destruct (gs_new_ok E) as (Hx & Hy & _).
  split; intros H; apply distinct_disjoint; assumption.
Qed.
Print Assumptions C14_distinct_tiles_separated.

(** footprints have the size shape*|resolution|; neighbours share their common
    edge exactly (the other axis' interval is the same term) *)
Theorem C14_neighbours_share_edge :
  forall ny nx ry rx ox oy flipx flipy g, gs_new ny nx ry rx ox oy flipx flipy = Ok g ->
  forall ix iy,
    snd (tile_x g ix) == fst (tile_x g ix) + inject_Z nx * Qabs rx /\
    snd (tile_y g iy) == fst (tile_y g iy) + inject_Z ny * Qabs ry /\
    (flipx = false -> snd (tile_x g ix) == fst (tile_x g (ix + 1))) /\
    (flipx = true -> fst (tile_x g ix) == snd (tile_x g (ix + 1))) /\
    (flipy = false -> snd (tile_y g iy) == fst (tile_y g (iy + 1))) /\
    (flipy = true -> fst (tile_y g iy) == snd (tile_y g (iy + 1))).
Proof.
  intros ny nx ry rx ox oy flipx flipy g E ix iy. apply gs_new_iff in E. destruct E as [_ ->].
  pose proof (consecutive_share_endpoint (mkBin (inject_Z nx * Qabs rx) ox (flipdir flipx)) ix) as [X1 X2].
  pose proof (consecutive_share_endpoint (mkBin (inject_Z ny * Qabs ry) oy (flipdir flipy)) iy) as [Y1 Y2].
  split; [apply interval_width|]. split; [apply interval_width|].
  split; [intros ->; exact (X1 eq_refl)|]. split; [intros ->; exact (X2 eq_refl)|].
  split; [intros ->; exact (Y1 eq_refl) | intros ->; exact (Y2 eq_refl)].
Qed.
Print Assumptions C14_neighbours_share_edge.

(** the tile GeoBox has the specified shape and resolution and its bounding box
    (BoundingBox.from_transform) is the pair of intervals *)
Theorem C14_tile_geobox :
  forall ny nx ry rx ox oy flipx flipy g, gs_new ny nx ry rx ox oy flipx flipy = Ok g ->
  forall ix iy,
    let b := tile_geobox g (ix, iy) in
    gb_ny b = ny /\ gb_nx b = nx /\ gb_sx b = rx /\ gb_sy b = ry /\
    fst (fst (fst (gbox_bbox b))) == fst (tile_x g ix) /\
    snd (fst (fst (gbox_bbox b))) == fst (tile_y g iy) /\
    snd (fst (gbox_bbox b)) == snd (tile_x g ix) /\
    snd (gbox_bbox b) == snd (tile_y g iy).
Proof.
  intros ny nx ry rx ox oy flipx flipy g E ix iy.
  pose proof (tile_geobox_spec g ix iy (gs_new_ok E)) as H.
  apply gs_new_iff in E. destruct E as [_ ->]. exact H.
Qed.
Print Assumptions C14_tile_geobox.

(** bounding-box query, every query box: the returned indices are exactly those
    whose interval meets [x1+tol, x2-tol] (resp. [x2-tol, x1+tol] for boxes
    narrower than 2 tol) on both axes *)
Theorem C14_tiles_bbox_query :
  forall ny nx ry rx ox oy flipx flipy g, gs_new ny nx ry rx ox oy flipx flipy = Ok g ->
  forall tol x1 y1 x2 y2 ix iy,
    In (ix, iy) (tiles g tol (x1, y1, x2, y2)) <->
    ((x1 + tol <= x2 - tol /\ fst (tile_x g ix) <= x2 - tol /\ x1 + tol < snd (tile_x g ix)) \/
     (x2 - tol < x1 + tol /\ fst (tile_x g ix) <= x1 + tol /\ x2 - tol < snd (tile_x g ix))) /\
    ((y1 + tol <= y2 - tol /\ fst (tile_y g iy) <= y2 - tol /\ y1 + tol < snd (tile_y g iy)) \/
     (y2 - tol < y1 + tol /\ fst (tile_y g iy) <= y1 + tol /\ y2 - tol < snd (tile_y g iy))).
Proof.
  intros ny nx ry rx ox oy flipx flipy g E tol x1 y1 x2 y2 ix iy.
  apply (tiles_iff g tol x1 y1 x2 y2 ix iy (gs_new_ok E)).
Qed.
Print Assumptions C14_tiles_bbox_query.

(** for query boxes at least 2 tol wide: exactly the tiles that reach into the
    box by more than tol from its lower edges and by at least tol from its upper
    edges — edge contacts within tol are excluded *)
Theorem C14_tiles_bbox_query_wide :
  forall ny nx ry rx ox oy flipx flipy g, gs_new ny nx ry rx ox oy flipx flipy = Ok g ->
  forall tol x1 y1 x2 y2 ix iy, x1 + tol <= x2 - tol -> y1 + tol <= y2 - tol ->
    (In (ix, iy) (tiles g tol (x1, y1, x2, y2)) <->
     (fst (tile_x g ix) <= x2 - tol /\ x1 + tol < snd (tile_x g ix)) /\
     (fst (tile_y g iy) <= y2 - tol /\ y1 + tol < snd (tile_y g iy))).
Proof.
  intros ny nx ry rx ox oy flipx flipy g E tol x1 y1 x2 y2 ix iy Wx Wy.
  rewrite (tiles_iff g tol x1 y1 x2 y2 ix iy (gs_new_ok E)).
  rewrite (axis_hit_wide _ _ _ _ ix Wx), (axis_hit_wide _ _ _ _ iy Wy). reflexivity.
Qed.
Print Assumptions C14_tiles_bbox_query_wide.

(** every tile overlapping the query by more than tol on both axes is returned *)
Theorem C14_tiles_overlap_included :
  forall ny nx ry rx ox oy flipx flipy g, gs_new ny nx ry rx ox oy flipx flipy = Ok g ->
  forall tol x1 y1 x2 y2 ix iy,
    tol < snd (tile_x g ix) - x1 -> tol < x2 - fst (tile_x g ix) ->
    tol < snd (tile_y g iy) - y1 -> tol < y2 - fst (tile_y g iy) ->
    In (ix, iy) (tiles g tol (x1, y1, x2, y2)).
Proof.
  intros ny nx ry rx ox oy flipx flipy g E tol x1 y1 x2 y2 ix iy A B C D.
  apply (tiles_iff g tol x1 y1 x2 y2 ix iy (gs_new_ok E)).
  split; apply axis_hit_overlap; assumption.
Qed.
Print Assumptions C14_tiles_overlap_included.

(** no index is returned twice *)
Theorem C14_tiles_no_duplicates :
  forall g tol bounds, NoDup (tiles g tol bounds).
Proof. exact tiles_NoDup. Qed.
Print Assumptions C14_tiles_no_duplicates.

(** polygon query: exactly the bounding-box candidates whose footprint the oracle
    (shapely [disjoint] on the CRS-converted polygon) reports non-disjoint *)
Section PolygonOracles.
  Variable P : Type.                            (* query polygons, any CRS *)
  Variable bbox_of : P -> Q * Q * Q * Q.        (* bounding box after conversion to the grid CRS *)
  Variable disjoint : P -> gbox -> bool.        (* converted polygon vs. tile extent *)

  Theorem C14_tiles_polygon_query :
    forall g tol p idx,
      In idx (tiles_from_geopolygon bbox_of disjoint g tol p) <->
      In idx (tiles g tol (bbox_of p)) /\ disjoint p (tile_geobox g idx) = false.
  Proof.
    intros g tol p idx. unfold tiles_from_geopolygon. rewrite filter_In, negb_true_iff. reflexivity.
  Qed.
End PolygonOracles.
Print Assumptions C14_tiles_polygon_query.

(** a grid rebuilt from any one of its tiles (footprint, index, shape, flip
    flags) has the same footprint for every index and the same point lookup *)
Theorem C14_from_sample_tile :
  forall ny nx ry rx ox oy flipx flipy g, gs_new ny nx ry rx ox oy flipx flipy = Ok g ->
  forall jx jy,
    exists g',
      from_sample_tile (fst (tile_x g jx), fst (tile_y g jy), snd (tile_x g jx), snd (tile_y g jy))
                       ny nx jx jy flipx flipy = Ok g' /\
      g_ny g' = ny /\ g_nx g' = nx /\
      (forall i, fst (tile_x g' i) == fst (tile_x g i) /\ snd (tile_x g' i) == snd (tile_x g i)) /\
      (forall i, fst (tile_y g' i) == fst (tile_y g i) /\ snd (tile_y g' i) == snd (tile_y g i)) /\
      (forall x y, pt2idx g' x y = pt2idx g x y).
Proof.
  intros ny nx ry rx ox oy flipx flipy g E jx jy. pose proof (gs_new_ok E) as Hg.
  apply gs_new_iff in E. destruct E as [_ ->].
  exact (from_sample_tile_spec _ jx jy flipx flipy Hg eq_refl eq_refl).
Qed.
Print Assumptions C14_from_sample_tile.

(** web tiles at zoom z ([h] = pi*R, any positive constant): 2^z tiles of size
    2h/2^z per side; tile (i,j) spans x in [-h + i t, -h + (i+1) t] and
    y in [h - (j+1) t, h - j t] (slippy-map extents, row 0 at the top); every
    point of [-h,h) x [-h,h) is looked up to an index in 0..2^z-1 *)
Theorem C14_web_tiles :
  forall h z npix, 0 < h -> (0 <= z)%Z -> (1 <= npix)%Z ->
  exists g, web_tiles h z npix = Ok g /\ g_ny g = npix /\ g_nx g = npix /\
    let tsz := 2 * h / inject_Z (2 ^ z) in
    tsz * inject_Z (2 ^ z) == 2 * h /\
    (forall i, fst (tile_x g i) == - h + inject_Z i * tsz /\
               snd (tile_x g i) == - h + (inject_Z i + 1) * tsz) /\
    (forall j, fst (tile_y g j) == h - (inject_Z j + 1) * tsz /\
               snd (tile_y g j) == h - inject_Z j * tsz) /\
    (forall x y, - h <= x < h -> - h <= y < h ->
                 (0 <= fst (pt2idx g x y) < 2 ^ z)%Z /\ (0 <= snd (pt2idx g x y) < 2 ^ z)%Z).
Proof.
  intros h z npix Hh Hz Hn. destruct (web_tiles_spec h z npix Hh Hz Hn) as (g & E & _ & H).
  exists g. split; [exact E | exact H].
Qed.
Print Assumptions C14_web_tiles.

(** the hypotheses are satisfiable and the functions compute *)
Example C14_ex_grid :
  exists g, gs_new 4 5 (-(1#2)) (1#4) (3#1) (-(7#1)) true false = Ok g /\
            pt2idx g (3#1) (-(7#1)) = (0, 0)%Z /\
            pt2idx g (29#10) (-(71#10)) = (1, -1)%Z /\
            tiles g (1#100000000) (0, -(9#1), (17#4), -(5#1)) = [(0, -1); (1, -1); (2, -1); (3, -1); (0, 0); (1, 0); (2, 0); (3, 0)]%Z.
Proof. eexists. split; [reflexivity|]. vm_compute. repeat split; reflexivity. Qed.

Example C14_ex_web :
  exists g, web_tiles (20037508#1) 3 256 = Ok g /\ pt2idx g 0 0 = (4, 3)%Z /\
            pt2idx g (-(20037508#1)) (20037507#1) = (0, 0)%Z.
Proof. eexists. split; [reflexivity|]. vm_compute. split; reflexivity. Qed.

(** Tie to the source: Bin1D.__getitem__ / Bin1D.bin as regenerated by tools/py2v from the
    current odc/geo/math.py (coq/Gen/MathGen.v, rewritten on every run) are the Bin1D of
    the model (Model/GridSpec.v) the theorems above are stated on. *)
From OG Require Proofs.MathGenEquivG.
Theorem C14_source_is_model : OG.Proofs.MathGenEquivG.gridspec_source_is_model.
Proof. exact OG.Proofs.MathGenEquivG.gridspec_source_is_model_holds. Qed.
Print Assumptions C14_source_is_model.
