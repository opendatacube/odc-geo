(** Property C17 — ROI (slice) helpers agree with array slicing semantics.
    Each theorem is a lemma of Proofs/Roi*.v or a few lines from them, and is
    followed by [Print Assumptions].  [X] is an arbitrary list (a 1-d array over any type);
    [sel X s e] is numpy's [X[s:e]] for non-negative bounds and [np_get] the
    CPython/numpy indexing semantics for arbitrary int/slice indices. *)
From Coq Require Import QArith Qround List Lia.
From OG Require Import Base.Result Base.ListSel Model.Roi Proofs.RoiProofs Proofs.RoiPointsProofs Proofs.RoiGenEquiv.
Import ListNotations.
Open Scope Z_scope.

(** a normalised slice selects the same elements as the original *)
Theorem C17_norm_slice_same_selection :
  forall (A : Type) (X : list A) (a b st : option Z), step_ok st ->
    np_get X (norm_slice (SSl a b st) (len X)) = np_get X (SSl a b st).
Proof. intros A X a b st _. apply norm_slice_same_selection. Qed.
Print Assumptions C17_norm_slice_same_selection.

Theorem C17_norm_int_same_selection :
  forall (A : Type) (X : list A) (i : Z) (l : list A),
    np_get X (SInt i) = Some l -> np_get X (norm_slice (SInt i) (len X)) = Some l.
Proof. exact @norm_int_same_selection. Qed.
Print Assumptions C17_norm_int_same_selection.

(** three-way intersection of closed non-negative slices with start <= stop:
    X[a][a'] = X[b][b'] = X[ab'], ab' = common index set *)
Theorem C17_slice_intersect3 :
  forall (A : Type) (X : list A) a b a0 a1 sa b0 b1 sb,
    norm_slice_or_error a = Ok (a0, a1, sa) ->
    norm_slice_or_error b = Ok (b0, b1, sb) ->
    a0 <= a1 -> b0 <= b1 ->
    exists a' b' ab',
      slice_intersect3 a b = Ok (a', b', ab') /\
      0 <= fst a' <= snd a' /\ 0 <= fst b' <= snd b' /\ 0 <= fst ab' <= snd ab' /\
      sel (sel X a0 a1) (fst a') (snd a') = sel X (fst ab') (snd ab') /\
      sel (sel X b0 b1) (fst b') (snd b') = sel X (fst ab') (snd ab') /\
      (forall i, fst ab' <= i < snd ab' <-> (a0 <= i < a1 /\ b0 <= i < b1)).
Proof. exact @slice_intersect3_spec. Qed.
Print Assumptions C17_slice_intersect3.

(** ... and it fails (ValueError) exactly on open-ended / negative inputs *)
Theorem C17_slice_intersect3_error :
  forall a b e,
    slice_intersect3 a b = Err e <->
    (norm_slice_or_error a = Err e \/
     (exists v, norm_slice_or_error a = Ok v) /\ norm_slice_or_error b = Err e).
Proof.
  intros a b e. unfold slice_intersect3.
  destruct (norm_slice_or_error a) as [[[a0 a1] sa]|ea],
           (norm_slice_or_error b) as [[[b0 b1] sb]|eb]; cbn [bind];
    [destruct (a1 <? b0); [|destruct (a0 >? b1)] | ..];
    (split; [intros H; try discriminate; injection H as ->; eauto
            | intros [H|[[v Hv] H]]; congruence]).
Qed.
Print Assumptions C17_slice_intersect3_error.

Theorem C17_roi_intersect_is_common_part :
  forall a b, slice_intersect a b =
              match slice_intersect3 a b with Ok (_, _, ab) => Ok ab | Err e => Err e end.
Proof.
  intros a b. unfold slice_intersect, slice_intersect3.
  destruct (norm_slice_or_error a) as [[[a0 a1] sa]|ea]; [|reflexivity].
  destruct (norm_slice_or_error b) as [[[b0 b1] sb]|eb]; [|reflexivity]. cbn [bind].
  destruct (a1 <? b0); [|destruct (a0 >? b1)]; reflexivity.
Qed.
Print Assumptions C17_roi_intersect_is_common_part.

Theorem C17_shape_is_length :
  forall (A : Type) (X : list A) a b st, 0 <= a <= b -> b <= len X ->
    slice_dim (SSl (Some a) (Some b) st) = Ok (len (sel X a b)).
Proof. intros; simpl; rewrite len_sel by lia; f_equal; lia. Qed.
Print Assumptions C17_shape_is_length.

Theorem C17_empty_iff_no_elements :
  forall (A : Type) (X : list A) a b, 0 <= a -> 0 <= b <= len X ->
    ((b - a <=? 0) = true <-> sel X a b = []).
Proof.
  intros A X a b Ha Hb; split; intros H.
  - apply sel_empty; lia.
  - apply (f_equal len) in H. rewrite len_sel in H by lia. cbn in H. lia.
Qed.
Print Assumptions C17_empty_iff_no_elements.

Theorem C17_shape_and_empty_nd :
  forall ss : list (Z * Z),
    roi_shape (map mk ss) = Ok (map (fun ab => snd ab - fst ab) ss) /\
    roi_is_empty (map mk ss) = Ok (existsb (fun ab => snd ab - fst ab <=? 0) ss).
Proof. intros ss; split; [exact (roi_shape_nd ss) | exact (roi_is_empty_nd ss)]. Qed.
Print Assumptions C17_shape_and_empty_nd.

Theorem C17_full_sound :
  forall (A : Type) (X : list A) a b st,
    slice_full (SSl a b st) (len X) = true -> np_get X (SSl a b None) = Some X.
Proof. exact @slice_full_sound. Qed.
Print Assumptions C17_full_sound.

Theorem C17_full_complete :
  forall (A : Type) (X : list A) a b st, 0 <= a <= b -> b <= len X -> 0 < len X ->
    sel X a b = X -> slice_full (SSl (Some a) (Some b) st) (len X) = true.
Proof.
  intros A X a b st Ha Hb Hn H.
  apply (f_equal len) in H. rewrite len_sel in H by lia.
  unfold slice_full, in_opt. lia.
Qed.
Print Assumptions C17_full_complete.

Theorem C17_center :
  forall s a0 a1 st, norm_slice_or_error s = Ok (a0, a1, st) -> slice_center2 s = Ok (a0 + a1).
Proof. intros s a0 a1 st H; unfold slice_center2; rewrite H; reflexivity. Qed.
Print Assumptions C17_center.

(** padding grows by [pad], clamped to the array *)
Theorem C17_pad :
  forall n pad a b st, 0 <= a <= b -> b <= n -> 0 <= pad ->
    pad_slice pad (SSl (Some a) (Some b) st) n =
      SSl (Some (Z.max 0 (a - pad))) (Some (Z.min n (b + pad))) None /\
    let a' := Z.max 0 (a - pad) in
    let b' := Z.min n (b + pad) in
    0 <= a' <= a /\ b <= b' <= n /\
    (a' = a - pad \/ a' = 0) /\ (b' = b + pad \/ b' = n) /\
    (forall i, a' <= i < b' <-> (0 <= i < n /\ a - pad <= i < b + pad)).
Proof.
  intros n pad a b st Ha Hb Hp; split;
    [apply pad_slice_eq; lia | cbn zeta; repeat split; lia].
Qed.
Print Assumptions C17_pad.

(** scaling down then up contains the original and exceeds it by less than the factor *)
Theorem C17_scale_down_up :
  forall a b k, 0 <= a <= b -> 1 <= k ->
    let u := scaled_up_slice (scaled_down_slice (a, b) k) k None in
    fst u <= a /\ b <= snd u /\ a - fst u < k /\ snd u - b < k /\ fst u mod k = 0 /\ snd u mod k = 0.
Proof.
  intros a b k _ Hk. assert (Hk' : 0 < k) by lia.
  cbn zeta. rewrite scaled_down_up_eq by exact Hk'. cbn [fst snd].
  destruct (align_down_spec a k Hk') as (D1 & D2 & D3), (align_up_spec b k Hk') as (U1 & U2 & U3).
  repeat split; assumption.
Qed.
Print Assumptions C17_scale_down_up.

(** roi_from_points: the window holds every given point that lies inside the image, together
    with its padding as far as the image goes; it lies inside the image, and with [align] each of
    its bounds is a multiple of it or the image edge *)
Theorem C17_roi_from_points :
  forall pts ny nx padding align x y,
    0 <= ny -> 0 <= nx -> 0 <= padding -> align_ok align ->
    In (Some (x, y)) pts ->
    (0 <= x)%Q -> (x <= inject_Z nx)%Q -> (0 <= y)%Q -> (y <= inject_Z ny)%Q ->
    let '((y0, y1), (x0, x1)) := roi_from_points pts ny nx padding align in
    (inject_Z x0 <= x)%Q /\ (x <= inject_Z x1)%Q /\ (inject_Z y0 <= y)%Q /\ (y <= inject_Z y1)%Q /\
    x0 <= Z.max 0 (Qfloor x - padding) /\ Z.min nx (Qceiling x + padding) <= x1 /\
    y0 <= Z.max 0 (Qfloor y - padding) /\ Z.min ny (Qceiling y + padding) <= y1 /\
    0 <= x0 <= nx /\ 0 <= x1 <= nx /\ 0 <= y0 <= ny /\ 0 <= y1 <= ny /\
    match align with
    | None => True
    | Some a => (x0 mod a = 0 \/ x0 = nx) /\ (x1 mod a = 0 \/ x1 = nx) /\
                (y0 mod a = 0 \/ y0 = ny) /\ (y1 mod a = 0 \/ y1 = ny)
    end.
Proof.
  intros pts ny nx padding align x y Hny Hnx Hp Ha Hin Hx0 Hx1 Hy0 Hy1.
  destruct (roi_from_points_axes pts ny nx padding align) as (lim & -> & L).
  destruct (L Hp Ha) as [Lx Ly]. apply keep_finite_in in Hin.
  destruct (axis_from_points_spec _ nx padding align lim x Hnx Hp Ha Lx (in_map fst _ _ Hin) Hx0 Hx1)
    as (X1 & X2 & X3 & X4 & X5 & X6 & X7).
  destruct (axis_from_points_spec _ ny padding align lim y Hny Hp Ha Ly (in_map snd _ _ Hin) Hy0 Hy1)
    as (Y1 & Y2 & Y3 & Y4 & Y5 & Y6 & Y7).
  destruct (axis_from_points _ nx _ _ _) as [x0 x1], (axis_from_points _ ny _ _ _) as [y0 y1].
  repeat (split; [assumption|]).
  destruct align; [destruct X7, Y7; repeat split; assumption | exact I].
Qed.
Print Assumptions C17_roi_from_points.

Theorem C17_roi_from_points_total :
  forall pts ny nx padding align,
    roi_from_points pts ny nx padding align =
      roi_from_points (map Some (keep_finite pts)) ny nx padding align /\
    (0 <= ny -> 0 <= nx ->
     let '((y0, y1), (x0, x1)) := roi_from_points pts ny nx padding align in
     0 <= x0 <= nx /\ 0 <= x1 <= nx /\ 0 <= y0 <= ny /\ 0 <= y1 <= ny).
Proof.
  intros pts ny nx padding align; split.
  - unfold roi_from_points. rewrite keep_finite_map_Some. reflexivity.
  - intros Hny Hnx. destruct (roi_from_points_axes pts ny nx padding align) as (lim & -> & _).
    destruct (axis_from_points_within (map fst (keep_finite pts)) nx padding align lim Hnx) as [X0 X1].
    destruct (axis_from_points_within (map snd (keep_finite pts)) ny padding align lim Hny) as [Y0 Y1].
    destruct (axis_from_points _ nx _ _ _), (axis_from_points _ ny _ _ _).
    exact (conj X0 (conj X1 (conj Y0 Y1))).
Qed.
Print Assumptions C17_roi_from_points_total.

(** Non-vacuity: concrete instances meeting the hypotheses (evaluated, not assumed). *)
Example C17_ex_intersect :
  slice_intersect3 (SSl (Some 2) (Some 9) None) (SSl None (Some 5) None) = Ok ((0, 3), (2, 5), (2, 5)).
Proof. vm_compute. reflexivity. Qed.
Example C17_ex_norm : norm_slice (SSl (Some (-15)) None None) 10 = SSl (Some 0) (Some 10) None.
Proof. vm_compute. reflexivity. Qed.
Example C17_ex_points :
  roi_from_points [Some (5#1, 5#1); Some (3000000000#1, 7#1); Some (-3000000000#1, 3#1); None]%Q
                  100 100 0 None = ((3, 7), (0, 100)).
Proof. vm_compute. reflexivity. Qed.

(** Tie to the source: the definitions regenerated by tools/py2v from the current
    odc/geo/roi.py and odc/geo/math.py (coq/Gen/RoiGen.v, rewritten on every run)
    are the model the theorems above are stated on. *)
Theorem C17_source_is_model : roi_source_is_model.
Proof. exact roi_source_is_model_holds. Qed.
Print Assumptions C17_source_is_model.
