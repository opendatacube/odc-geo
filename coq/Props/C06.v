(** Property C06 — multi-part assembly preserves the byte stream under any schedule.
    Statements, closed by [exact] or in a few lines from Proofs/MpuProofs.v, +
    [Print Assumptions].

    [mpu_write fx pw wpc spill hdr has_footer footer t] is the model of
    [mpu_write(chunks, write, mk_header=, mk_footer=, writes_per_chunk=, spill_sz=).compute()]
    executed along the merge tree [t] (any bracketing of adjacent partitions: dask's
    [fold(split_every=k)] over each bag and the left fold of [collate_substreams] are
    instances); it returns the list handed to [write.finalise], the log of all writer
    calls and the (size, id) list shown to the header/footer callbacks.  Bytes [A] and
    chunk ids [CI] are arbitrary types. *)
From Coq Require Import ZArith List Bool Lia Permutation Sorted.
From OG Require Import Base.Result Base.ListSel Model.Mpu Proofs.MpuProofs.
Import ListNotations.
Open Scope Z_scope.

(** Full statement, for the repaired code ([fixed]): for every merge tree with at least
    one chunk per partition, every chunk content, spill size, writes-per-chunk,
    header/footer and writer limits providing enough part numbers, the write succeeds
    and
    - the finalised parts concatenated are header ++ chunks ++ footer,
    - their part numbers are strictly increasing along the list, within [minp, maxp],
    - the finalise list is a permutation of the writer calls,
    - every part but the last is at least [minw] long,
    - the callbacks saw the complete ordered (size, id) list. *)
Theorem C06_mpu_write_correct :
  forall (A CI : Type) (pw : writer), 0 <= minw pw ->
  forall wpc spill (hdr : list A) has_footer footer (t : tree A CI),
    1 <= wpc -> 0 <= spill -> tree_ok t ->
    minp pw + nleaves t * wpc <= maxp pw ->
    exists fp log,
      mpu_write fixed pw wpc spill hdr has_footer footer t = Ok (fp, log, obs_of (tree_chunks t)) /\
      concat (map snd fp) = hdr ++ bytes_of (tree_chunks t) ++ (if has_footer then footer else []) /\
      incr_from (minp pw) (map fst fp) (maxp pw + 1) /\
      Permutation fp log /\
      Forall (fun p => minw pw <= len (snd p)) (removelast fp) /\
      fp <> [].
Proof. exact @mpu_write_correct. Qed.
Print Assumptions C06_mpu_write_correct.

(** [incr_from lo ids hi] means: strictly increasing and every id in [lo, hi). *)
Theorem C06_incr_from_meaning :
  forall lo ids hi, incr_from lo ids hi ->
    StronglySorted Z.lt ids /\ Forall (fun x => lo <= x < hi) ids.
Proof. intros lo ids hi H; split; [exact (incr_from_sorted _ _ _ H) | exact (incr_from_range _ _ _ H)]. Qed.
Print Assumptions C06_incr_from_meaning.

(** The assembled bytes do not depend on how the stream was partitioned and bracketed:
    any two schedules over the same chunk stream produce the same file. *)
Theorem C06_schedule_independent :
  forall (A CI : Type) (pw : writer), 0 <= minw pw ->
  forall wpc1 spill1 wpc2 spill2 (hdr : list A) has_footer footer (t1 t2 : tree A CI),
    1 <= wpc1 -> 0 <= spill1 -> tree_ok t1 -> minp pw + nleaves t1 * wpc1 <= maxp pw ->
    1 <= wpc2 -> 0 <= spill2 -> tree_ok t2 -> minp pw + nleaves t2 * wpc2 <= maxp pw ->
    bytes_of (tree_chunks t1) = bytes_of (tree_chunks t2) ->
    exists fp1 log1 o1 fp2 log2 o2,
      mpu_write fixed pw wpc1 spill1 hdr has_footer footer t1 = Ok (fp1, log1, o1) /\
      mpu_write fixed pw wpc2 spill2 hdr has_footer footer t2 = Ok (fp2, log2, o2) /\
      concat (map snd fp1) = concat (map snd fp2).
Proof.
  intros A CI pw Hm wpc1 spill1 wpc2 spill2 hdr hf footer t1 t2 H1 H2 H3 H4 H5 H6 H7 H8 Hb.
  destruct (@mpu_write_correct A CI pw Hm wpc1 spill1 hdr hf footer t1 H1 H2 H3 H4) as (fp1 & l1 & E1 & C1 & _).
  destruct (@mpu_write_correct A CI pw Hm wpc2 spill2 hdr hf footer t2 H5 H6 H7 H8) as (fp2 & l2 & E2 & C2 & _).
  eexists fp1, l1, _, fp2, l2, _. split; [exact E1|]. split; [exact E2|].
  unfold pbytes in *. rewrite C1, C2, Hb. reflexivity.
Qed.
Print Assumptions C06_schedule_independent.

(** Non-vacuity: a concrete three-partition schedule with header, spill in the middle
    and a two-chunk final partition meets the hypotheses and evaluates as stated. *)
Definition ex_w := {| minw := 4; minp := 1; maxp := 10 |}.
Definition ex_t : tree Z Z :=
  Node (Leaf [([1;2;3;4;5;6;7;8;9;10;11;12;13;14;15;16;17;18;19;20], Some 0)])
       (Node (Leaf [([21;22;23;24;25;26;27;28;29;30], Some 1)])
             (Leaf [([31;32;33;34;35;36;37;38;39;40;41;42], Some 2); ([43;44;45], Some 3)])).
Example C06_example :
  tree_ok ex_t /\ minp ex_w + nleaves ex_t * 1 <= maxp ex_w /\
  mpu_write fixed ex_w 1 8 [100;101] false [] ex_t =
  Ok ([(1, [100; 101; 1; 2; 3; 4]);
       (2, [5; 6; 7; 8; 9; 10; 11; 12; 13; 14; 15; 16; 17; 18; 19; 20; 21; 22; 23; 24]);
       (3, [25; 26; 27; 28; 29; 30; 31; 32; 33; 34; 35; 36; 37; 38; 39; 40; 41; 42; 43; 44; 45])],
      [(3, [25; 26; 27; 28; 29; 30; 31; 32; 33; 34; 35; 36; 37; 38; 39; 40; 41; 42; 43; 44; 45]);
       (2, [5; 6; 7; 8; 9; 10; 11; 12; 13; 14; 15; 16; 17; 18; 19; 20; 21; 22; 23; 24]);
       (1, [100; 101; 1; 2; 3; 4])],
      [(20, Some 0); (10, Some 1); (12, Some 2); (3, Some 3)]).
Proof. repeat split; try (simpl; congruence); try (vm_compute; congruence); vm_compute; reflexivity. Qed.

(** The code before the repairs violated the statement in three independent ways; each
    is refuted with a witness evaluated by [vm_compute] (the check replays the witnesses of
    corpus/C06/ on the repaired implementation, which passes them). *)

(* F2: a final partition holding two chunks with a spill in between ran out of write
   credits: AssertionError at [assert can_flush(write)] *)
Theorem C06_unrepaired_final_partition_refuted :
  exists (pw : writer) wpc spill (t : tree Z Z),
    0 <= minw pw /\ 1 <= wpc /\ 0 <= spill /\ tree_ok t /\ minp pw + nleaves t * wpc <= maxp pw /\
    mpu_write {| fx_final_loop := false; fx_spill_min := true; fx_left_id := true |}
              pw wpc spill [] false [] t = Err (EAssert 207).
Proof.
  exists {| minw := 4; minp := 1; maxp := 5 |}, 1, 8,
    (Node (Leaf [([1;2;3;4;5;6;7;8;9;10;11;12;13;14;15;16;17;18;19;20], Some 0)])
          (Leaf [([1;2;3;4;5;6;7;8;9;10;11;12;13;14;15;16;17;18;19;20;21;22;23;24;25;26;27;28;29;30], Some 1);
                 ([7;8;9], Some 2)])).
  repeat split; try (simpl; lia); try (simpl; congruence); try (vm_compute; reflexivity).
Qed.
Print Assumptions C06_unrepaired_final_partition_refuted.

(* F3: with 0 < spill_sz < min_write_sz a non-final part smaller than the minimum was written *)
Theorem C06_unrepaired_small_spill_refuted :
  exists (pw : writer) wpc spill (t : tree Z Z) fp log obs,
    0 <= minw pw /\ 1 <= wpc /\ 0 <= spill /\ tree_ok t /\ minp pw + nleaves t * wpc <= maxp pw /\
    mpu_write {| fx_final_loop := true; fx_spill_min := false; fx_left_id := true |}
              pw wpc spill [] true [9] t = Ok (fp, log, obs) /\
    forallb (fun p => minw pw <=? len (snd p)) (removelast fp) = false.
Proof.
  exists {| minw := 4; minp := 1; maxp := 9 |}, 2, 1,
    (Leaf [([1;2;3;4;5;6;7;8;9], Some 0); ([10], Some 1)]).
  eexists _, _, _.
  split; [simpl; lia|]. split; [lia|]. split; [lia|]. split; [simpl; congruence|]. split; [simpl; lia|].
  split; [vm_compute; reflexivity|]. vm_compute. reflexivity.
Qed.
Print Assumptions C06_unrepaired_small_spill_refuted.

(* F21: the left-over/header part was always numbered 1, outside the range of a writer
   whose first allowed part number is larger *)
Theorem C06_unrepaired_left_part_id_refuted :
  exists (pw : writer) wpc spill (t : tree Z Z) fp log obs,
    0 <= minw pw /\ 1 <= wpc /\ 0 <= spill /\ tree_ok t /\ minp pw + nleaves t * wpc <= maxp pw /\
    mpu_write {| fx_final_loop := true; fx_spill_min := true; fx_left_id := false |}
              pw wpc spill [] false [] t = Ok (fp, log, obs) /\
    forallb (fun x => (minp pw <=? x) && (x <=? maxp pw)) (map fst fp) = false.
Proof.
  exists {| minw := 2; minp := 3; maxp := 9 |}, 1, 0, (Leaf [([1;2;3], Some 0)]).
  eexists _, _, _.
  split; [simpl; lia|]. split; [lia|]. split; [lia|]. split; [simpl; congruence|]. split; [simpl; lia|].
  split; [vm_compute; reflexivity|]. vm_compute. reflexivity.
Qed.
Print Assumptions C06_unrepaired_left_part_id_refuted.
