(** Property C04 — tilings are exact partitions and blocks reassemble the mosaic.
    Statements, each proved in a few lines from the lemmas of Proofs/ and followed by
    [Print Assumptions].

    Vocabulary (definitions of Proofs/TilesProofs.v, Proofs/BlocksProofs.v):
    [rt_wf t]        t is a tiling as its constructor builds it: regular with tile
                     sizes >= 1, base sizes >= 0 and the ceil-division tile count, or
                     variable with offsets = prefix sums of non-negative chunks whose
                     total is below 2^63 (the constructors establish it: first four
                     theorems);
    [By t i], [Bx t j]   lower boundary of tile row i / column j (closed forms below);
    [tile_region t (r,c)] = ((By r, By (r+1)), (Bx c, Bx (c+1)));  [in_roi R p]: pixel p
                     lies in R;  [in_grid t (r,c)]: 0 <= r,c < shape;
    [in_range S i] = -S <= i < S and [wrap_idx S i] = numpy's negative-index wrap;
    [valid_block t ((a,b),(c,d))]: 0 <= a < Sy, a <= b <= Sy, same for columns;
    [window_of box R]: the pixel window R of a GeoBox window (offset added, shape of R).
    Pairs are (y, x). *)
From Coq Require Import ZArith List Bool Lia Permutation.
From OG Require Import Base.Result Base.ListSel Model.Roi Model.Tiles Model.Blocks
     Proofs.TilesProofs Proofs.BlocksProofs.
Import ListNotations.
Open Scope Z_scope.

(** regular: any base >= 0 (>= 1 for a non-degenerate tiling) and any tile >= 1;
    the tile count S is the ceiling of base/tile *)
Theorem C04_tiles_init :
  forall base tile t,
    0 < fst tile -> 0 < snd tile -> 0 <= fst base -> 0 <= snd base ->
    tiles_init base tile = Ok t ->
    rt_wf (RReg t) /\ t_base t = base /\ t_tile t = tile /\
    t_shape t = (cdiv (fst base) (fst tile), cdiv (snd base) (snd tile)) /\
    (fst (t_shape t) - 1) * fst tile < fst base <= fst (t_shape t) * fst tile /\
    (snd (t_shape t) - 1) * snd tile < snd base <= snd (t_shape t) * snd tile.
Proof.
  intros base tile t H1 H2 H3 H4 E.
  destruct (tiles_init_inv base tile t H1 H2 H3 H4 E) as (W & Eb & Et & Es). rewrite Es. cbn [fst snd].
  repeat (split; [assumption || reflexivity|]). split; apply cdiv_spec; assumption.
Qed.
Print Assumptions C04_tiles_init.

Theorem C04_tiles_init_total :
  forall base tile,
    (0 < fst tile -> 0 < snd tile -> 0 <= fst base -> 0 <= snd base -> exists t, tiles_init base tile = Ok t) /\
    (tiles_init base tile = Err EOther <-> fst tile = 0 \/ snd tile = 0).
Proof.
  intros base tile. split; [|apply tiles_init_err].
  intros. rewrite tiles_init_eq by lia. eauto.
Qed.
Print Assumptions C04_tiles_init_total.

(** variable: every pair of chunk tuples with non-negative entries (so in particular
    positive ones) whose totals fit int64; shape, base and chunks are what was given
    (sum chunks = base) and the boundaries are the prefix sums *)
Theorem C04_vtiles_init :
  forall chy chx,
    nonneg chy -> nonneg chx -> sumZ chy < two63 -> sumZ chx < two63 ->
    exists v, vt_init chy chx = Ok v /\
      rt_wf (RVar v) /\ rt_shape (RVar v) = (len chy, len chx) /\
      rt_base (RVar v) = Ok (sumZ chy, sumZ chx) /\ rt_chunks (RVar v) = Ok (chy, chx) /\
      (forall i, 0 <= i <= len chy -> By (RVar v) i = sumZ (firstn (Z.to_nat i) chy)) /\
      (forall j, 0 <= j <= len chx -> Bx (RVar v) j = sumZ (firstn (Z.to_nat j) chx)).
Proof.
  intros chy chx Ny Nx Ty Tx. rewrite sumZ_tot in Ty, Tx.
  eexists. apply (vt_init_spec chy chx Ny Nx Ty Tx).
Qed.
Print Assumptions C04_vtiles_init.

(** an entry outside int64 is an error (OverflowError), not a wrapped tiling *)
Theorem C04_vtiles_init_overflow :
  forall chy chx, forallb fits64 chy = false \/ forallb fits64 chx = false ->
    vt_init chy chx = Err EOther.
Proof.
  intros chy chx H. unfold vt_init, vt_offsets.
  destruct (forallb fits64 chy); destruct (forallb fits64 chx); cbn [bind]; try reflexivity.
  destruct H; discriminate.
Qed.
Print Assumptions C04_vtiles_init_overflow.

(** closed form of the boundaries of a regular tiling: tile r spans rows
    [r*n, min((r+1)*n, N)) *)
Theorem C04_regular_boundaries :
  forall t i, By (RReg t) i = Z.min (i * fst (t_tile t)) (fst (t_base t)) /\
              Bx (RReg t) i = Z.min (i * snd (t_tile t)) (snd (t_base t)).
Proof.
  intros; split; reflexivity.
Qed.
Print Assumptions C04_regular_boundaries.

(** index validation: IndexError exactly outside [-S, S), negative indices count from the right *)
Theorem C04_index :
  forall t r c, rt_wf t ->
    rt_getitem t (int_idx (r, c)) =
      if in_range (fst (rt_shape t)) r && in_range (snd (rt_shape t)) c
      then Ok (tile_region t (wrap_idx (fst (rt_shape t)) r, wrap_idx (snd (rt_shape t)) c))
      else Err EIndex.
Proof. exact rt_index. Qed.
Print Assumptions C04_index.

(** in a tiling with at least one tile row and column, tile_shape agrees with the regions (and
    raises IndexError for the same indices) *)
Theorem C04_tile_shape :
  forall t r c, rt_wf t -> 0 < fst (rt_shape t) -> 0 < snd (rt_shape t) ->
    rt_tile_shape t (r, c) =
      if in_range (fst (rt_shape t)) r && in_range (snd (rt_shape t)) c
      then Ok (roi_shape2 (tile_region t (wrap_idx (fst (rt_shape t)) r, wrap_idx (snd (rt_shape t)) c)))
      else Err EIndex.
Proof.
  intros t r c (Hy & Hx). rewrite rt_tile_shape_axes, rt_shape_axes. cbn [fst snd].
  intros Sy Sx. rewrite (ax_sz_eq _ r Hy Sy), (ax_sz_eq _ c Hx Sx). cbv zeta.
  destruct (in_range (ax_S (rt_y t)) r); cbn [bind andb]; [|reflexivity].
  destruct (in_range (ax_S (rt_x t)) c); reflexivity.
Qed.
Print Assumptions C04_tile_shape.

(** every pixel of the rectangle lies in exactly one tile, namely [locate pixel] *)
Theorem C04_partition :
  forall t NY NX y x, rt_wf t -> rt_base t = Ok (NY, NX) -> 0 <= y < NY -> 0 <= x < NX ->
    exists rc, rt_locate t (y, x) = Ok rc /\ in_grid t rc /\
               rt_getitem t (int_idx rc) = Ok (tile_region t rc) /\
               in_roi (tile_region t rc) (y, x) /\
               forall rc', in_grid t rc' -> in_roi (tile_region t rc') (y, x) -> rc' = rc.
Proof.
  intros t NY NX y x W B Hy Hx. destruct (rt_base_inv t NY NX W B) as (<- & <-).
  pose proof (rt_locate_spec t y x W) as L. destruct (rt_locate t (y, x)) as [rc | e]; [|tauto].
  destruct L as (G & P). exists rc. repeat (split; [reflexivity || assumption|]).
  split; [apply rt_index_grid; assumption|]. split; [exact P|].
  intros rc' G' P'. apply (rt_disjoint t rc' rc (y, x)); assumption.
Qed.
Print Assumptions C04_partition.

(** locate of any pixel of tile rc is rc *)
Theorem C04_locate_inverse :
  forall t rc y x, rt_wf t -> in_grid t rc -> in_roi (tile_region t rc) (y, x) ->
    rt_locate t (y, x) = Ok rc.
Proof.
  intros t rc y x W G P. apply rt_locate_iff; auto.
Qed.
Print Assumptions C04_locate_inverse.

(** locate raises IndexError exactly outside the rectangle *)
Theorem C04_locate_outside :
  forall t NY NX y x, rt_wf t -> rt_base t = Ok (NY, NX) -> ~ (0 <= y < NY /\ 0 <= x < NX) ->
    rt_locate t (y, x) = Err EIndex.
Proof.
  intros t NY NX y x W B H. destruct (rt_base_inv t NY NX W B) as (<- & <-).
  apply rt_locate_outside; assumption.
Qed.
Print Assumptions C04_locate_outside.

(** tile regions are pairwise disjoint ... *)
Theorem C04_disjoint :
  forall t rc rc' p, rt_wf t -> in_grid t rc -> in_grid t rc' ->
    in_roi (tile_region t rc) p -> in_roi (tile_region t rc') p -> rc = rc'.
Proof. exact rt_disjoint. Qed.
Print Assumptions C04_disjoint.

(** ... and their union is exactly the rectangle *)
Theorem C04_cover_exact :
  forall t NY NX y x, rt_wf t -> rt_base t = Ok (NY, NX) ->
    ((0 <= y < NY /\ 0 <= x < NX) <-> exists rc, in_grid t rc /\ in_roi (tile_region t rc) (y, x)).
Proof.
  intros t NY NX y x W B. destruct (rt_base_inv t NY NX W B) as (<- & <-). split.
  - intros H. pose proof (rt_locate_spec t y x W) as L. destruct (rt_locate t (y, x)) as [rc | e]; [eauto | tauto].
  - intros (rc & G & P). exact (in_roi_inside t rc (y, x) W G P).
Qed.
Print Assumptions C04_cover_exact.

(** regular tiles are never empty (ragged last tile, 1-pixel tiles, tile larger than the image) *)
Theorem C04_regular_tiles_nonempty :
  forall t rc, rt_wf (RReg t) -> in_grid (RReg t) rc ->
    let r := tile_region (RReg t) rc in fst (fst r) < snd (fst r) /\ fst (snd r) < snd (snd r).
Proof.
  intros t rc (Wy & Wx) (G1 & G2). cbv zeta. unfold tile_region, By, Bx. cbn [fst snd rt_shape rt_y rt_x] in *.
  split; apply ax_reg_strict; assumption.
Qed.
Print Assumptions C04_regular_tiles_nonempty.

(** chunks/shape/base agree with the regions (in a tiling with at least one tile row and column):
    one entry per tile row/column, entry r is the height of tile row r, and sum chunks = base *)
Theorem C04_chunks :
  forall t NY NX, rt_wf t -> rt_base t = Ok (NY, NX) -> 0 < fst (rt_shape t) -> 0 < snd (rt_shape t) ->
    exists chy chx, rt_chunks t = Ok (chy, chx) /\
      len chy = fst (rt_shape t) /\ len chx = snd (rt_shape t) /\
      (forall r, 0 <= r < fst (rt_shape t) -> nthZ chy r = By t (r + 1) - By t r) /\
      (forall c, 0 <= c < snd (rt_shape t) -> nthZ chx c = Bx t (c + 1) - Bx t c) /\
      sumZ chy = NY /\ sumZ chx = NX.
Proof.
  intros t NY NX W B Sy Sx. destruct (rt_base_inv t NY NX W B) as (<- & <-). pose proof W as (Wy & Wx).
  rewrite rt_shape_axes in *. cbn [fst snd] in *.
  destruct (ax_chunks_spec _ Wy Sy) as (chy & Ey & Ly & Ny & Ty).
  destruct (ax_chunks_spec _ Wx Sx) as (chx & Ex & Lx & Nx & Tx).
  exists chy, chx. rewrite !sumZ_tot. split; [apply rt_chunks_from_axes; assumption|]. auto 10.
Qed.
Print Assumptions C04_chunks.

(** what happens for base size 0: no tiles; every lookup, locate and chunks raise IndexError *)
Theorem C04_empty_base :
  forall t ty tx NX, 0 < ty -> 0 < tx -> 0 <= NX -> tiles_init (0, NX) (ty, tx) = Ok t ->
    fst (t_shape t) = 0 /\
    (forall r c, tiles_getitem t (int_idx (r, c)) = Err EIndex) /\
    (forall p, tiles_locate t p = Err EIndex) /\
    tiles_chunks t = Err EIndex.
Proof. exact reg_empty_base. Qed.
Print Assumptions C04_empty_base.

(** Tiles[a:b, c:d] is the union of the selected tiles (empty for a = b) *)
Theorem C04_block :
  forall t blk, rt_wf t -> valid_block t blk -> rt_getitem t (mk_roi blk) = Ok (block_region t blk).
Proof. exact rt_block. Qed.
Print Assumptions C04_block.

Theorem C04_block_out_of_range :
  forall t a b c d, rt_wf t -> 0 <= a -> 0 <= b -> 0 <= c -> 0 <= d ->
    fst (rt_shape t) < a \/ fst (rt_shape t) < b \/ snd (rt_shape t) < c \/ snd (rt_shape t) < d ->
    rt_getitem t (mk_roi ((a, b), (c, d))) = Err EIndex.
Proof.
  intros t a b c d (Wy & Wx) Ha Hb Hc Hd V. rewrite rt_shape_axes in V. cbn [fst snd] in V.
  rewrite rt_getitem_axes. cbn [fst snd mk_roi]. rewrite !ax_get_eq, !norm_ss_mk by (assumption || lia).
  cbv zeta. cbn [fst snd]. pose proof (ax_lim_range (rt_y t)). pose proof (ax_lim_range (rt_x t)).
  destruct ((0 <=? a) && _ && _) eqn:Ey; [|reflexivity].
  destruct ((0 <=? c) && _ && _) eqn:Ex; [lia | reflexivity].
Qed.
Print Assumptions C04_block_out_of_range.

(** crop to a block of tiles = the tiling of the cropped rectangle, indices shifted by
    the block origin *)
Theorem C04_crop :
  forall t blk, rt_wf t -> valid_block t blk ->
    exists t', rt_crop t (mk_roi blk) = Ok t' /\ rt_wf t' /\
      rt_shape t' = (snd (fst blk) - fst (fst blk), snd (snd blk) - fst (snd blk)) /\
      rt_base t' = Ok (roi_shape2 (block_region t blk)) /\
      forall i j, in_grid t' (i, j) ->
        in_grid t (fst (fst blk) + i, fst (snd blk) + j) /\
        exists r', rt_getitem t' (int_idx (i, j)) = Ok r' /\
                   rt_getitem t (int_idx (fst (fst blk) + i, fst (snd blk) + j)) =
                     Ok (shift_roi r' (By t (fst (fst blk)), Bx t (fst (snd blk)))).
Proof.
  intros t blk W V. destruct (rt_crop_spec t blk W V) as (t' & E & W' & S & B & T).
  exists t'. repeat (split; [assumption|]). intros i j G.
  specialize (T (fst (fst blk) + i, fst (snd blk) + j) (i, j) G eq_refl eq_refl).
  split; [apply T | apply shifted_getitem; assumption].
Qed.
Print Assumptions C04_crop.

(** clip_tiles: the bounding block of the selection, cropped, with re-based indices *)
Theorem C04_clip :
  forall t p r t' roi new, rt_wf t -> Forall (in_grid t) (p :: r) ->
    clip_tiles t (p :: r) = Ok (t', roi, new) ->
    valid_block t roi /\ rt_crop t (mk_roi roi) = Ok t' /\
    new = map (fun yx => (fst yx - fst (fst roi), snd yx - fst (snd roi))) (p :: r) /\
    In (fst (fst roi)) (map fst (p :: r)) /\ In (snd (fst roi) - 1) (map fst (p :: r)) /\
    In (fst (snd roi)) (map snd (p :: r)) /\ In (snd (snd roi) - 1) (map snd (p :: r)) /\
    Forall (fun yx =>
              let n := (fst yx - fst (fst roi), snd yx - fst (snd roi)) in
              in_grid t' n /\
              exists r', rt_getitem t' (int_idx n) = Ok r' /\
                         rt_getitem t (int_idx yx) =
                           Ok (shift_roi r' (By t (fst (fst roi)), Bx t (fst (snd roi))))) (p :: r).
Proof.
  intros t p r t' roi new W G E.
  destruct (clip_tiles_spec t p r W G) as (t2 & y1 & y2 & x1 & x2 & E2 & V & Ec & W' & I1 & I2 & I3 & I4 & F).
  rewrite E in E2. inversion E2; subst t' roi new. cbn [fst snd].
  replace (y2 + 1 - 1) with y2 by lia. replace (x2 + 1 - 1) with x2 by lia.
  repeat (split; [assumption || reflexivity|]).
  eapply Forall_impl; [|exact F]. cbv zeta. intros yx (G' & T). split; [exact G'|].
  apply shifted_getitem; assumption.
Qed.
Print Assumptions C04_clip.

Theorem C04_clip_total :
  forall t p r, rt_wf t -> Forall (in_grid t) (p :: r) ->
    (exists res, clip_tiles t (p :: r) = Ok res) /\ clip_tiles t [] = Err EValue.
Proof.
  intros t p r W G. split; [|reflexivity].
  destruct (clip_tiles_spec t p r W G) as (t' & y1 & y2 & x1 & x2 & E & _). eauto.
Qed.
Print Assumptions C04_clip_total.

(** tile idx of a tiled GeoBox is the parent GeoBox cropped to the region Tiles[idx] ... *)
Theorem C04_geoboxtiles_getitem :
  forall g idx,
    gbt_getitem g idx =
      match rt_getitem (gb_tiles g) idx with
      | Ok r => Ok (gbox_crop (gb_box g) (mk_roi r))
      | Err e => Err e
      end.
Proof.
  intros g idx. unfold gbt_getitem. destruct (rt_getitem _ _); reflexivity.
Qed.
Print Assumptions C04_geoboxtiles_getitem.

(** ... i.e. for a tile index in the grid, exactly the pixel window of that tile, and
    chunk_shape is its shape; outside the grid IndexError *)
Theorem C04_geoboxtiles_tile :
  forall g, rt_wf (gb_tiles g) ->
    (forall rc, in_grid (gb_tiles g) rc ->
       gbt_getitem g (int_idx rc) = Ok (window_of (gb_box g) (tile_region (gb_tiles g) rc)) /\
       gbt_chunk_shape g rc = Ok (roi_shape2 (tile_region (gb_tiles g) rc))) /\
    (forall r c, in_range (fst (rt_shape (gb_tiles g))) r && in_range (snd (rt_shape (gb_tiles g))) c = false ->
       gbt_getitem g (int_idx (r, c)) = Err EIndex) /\
    gbt_chunks g = rt_chunks (gb_tiles g) /\ gbt_shape g = rt_shape (gb_tiles g).
Proof.
  intros g W. split; [|split; [|split; reflexivity]].
  - intros rc G. split; [apply gbt_tile | apply rt_tile_shape_grid]; assumption.
  - intros r c H. unfold gbt_getitem. rewrite rt_index by assumption. cbv zeta. rewrite H. reflexivity.
Qed.
Print Assumptions C04_geoboxtiles_tile.

(** crop: the cropped grid's base is the block's pixel window, its tiling the cropped
    tiling, and tile (i,j) of it is the same pixel window as tile (a+i, c+j) of the parent *)
Theorem C04_geoboxtiles_crop :
  forall g blk, rt_wf (gb_tiles g) -> valid_block (gb_tiles g) blk ->
    exists g', gbt_crop g (mk_roi blk) = Ok g' /\
      gb_box g' = window_of (gb_box g) (block_region (gb_tiles g) blk) /\
      rt_crop (gb_tiles g) (mk_roi blk) = Ok (gb_tiles g') /\ rt_wf (gb_tiles g') /\
      forall i j, in_grid (gb_tiles g') (i, j) ->
        gbt_getitem g' (int_idx (i, j)) = gbt_getitem g (int_idx (fst (fst blk) + i, fst (snd blk) + j)).
Proof.
  intros g blk W V. destruct (gbt_crop_spec g blk W V) as (g' & E & B & C & W' & T).
  exists g'. repeat (split; [assumption|]). intros i j G. apply T; [exact G | reflexivity ..].
Qed.
Print Assumptions C04_geoboxtiles_crop.

(** clip: every selected tile is found under its re-based index in the clipped grid *)
Theorem C04_geoboxtiles_clip :
  forall g p r, rt_wf (gb_tiles g) -> Forall (in_grid (gb_tiles g)) (p :: r) ->
    exists g' new o, gbt_clip g (p :: r) = Ok (g', new) /\
      new = map (fun yx => (fst yx - fst o, snd yx - snd o)) (p :: r) /\
      Forall (fun yx => let n := (fst yx - fst o, snd yx - snd o) in
                        in_grid (gb_tiles g') n /\
                        gbt_getitem g' (int_idx n) = gbt_getitem g (int_idx yx)) (p :: r).
Proof.
  intros g p r W G. destruct (gbt_clip_spec g p r W G) as (g' & y1 & x1 & E & F).
  eexists g', _, (y1, x1). split; [exact E|]. split; [reflexivity | exact F].
Qed.
Print Assumptions C04_geoboxtiles_clip.

(** the constructor accepts any subset of well-shaped blocks (key in range, extent
    = prefix ++ [chunk_y; chunk_x] ++ postfix with common prefix/postfix) and computes the
    mosaic shape; a block whose Y/X extent is not its chunk is a ValueError *)
Theorem C04_assembler_init :
  forall pre post chy chx keys,
    nonneg chy -> nonneg chx -> tot chy < two63 -> tot chx < two63 ->
    Forall (key_ok chy chx) keys -> (keys <> [] \/ (pre = [] /\ post = [])) ->
    exists a t, ba_init (map (fun k => (k, block_shape pre post chy chx k)) keys) chy chx (len pre) = Ok a /\
      vt_init chy chx = Ok t /\ rt_wf (RVar t) /\
      ba_shape a = pre ++ [sumZ chy; sumZ chx] ++ post /\ ba_axis a = len pre /\ ba_tiles a = t.
Proof. exact ba_init_ok. Qed.
Print Assumptions C04_assembler_init.

Theorem C04_assembler_rejects_misshaped_block :
  forall pre post chy chx k sy sx rest,
    key_ok chy chx k -> (sy, sx) <> (nthZ chy (fst k), nthZ chx (snd k)) ->
    ba_verify_shape ((k, pre ++ [sy; sx] ++ post) :: rest) chy chx (len pre) = Err EValue.
Proof.
  intros pre post chy chx k sy sx rest K Hne. unfold ba_verify_shape. cbn [verify_loop].
  rewrite verify_step_eval by auto.
  destruct (list_eqbZ _ _) eqn:Eq; [apply list_eqbZ_eq in Eq; inversion Eq; subst; congruence | reflexivity].
Qed.
Print Assumptions C04_assembler_rejects_misshaped_block.

(** the working dtype (np.result_type of all present blocks, float32 without blocks) does
    not depend on the order in which the blocks were inserted ... *)
Theorem C04_assembler_dtype_order_independent :
  forall a b : list dtype, Permutation a b -> ba_dtype a = ba_dtype b.
Proof.
  intros a b H. destruct a as [|x a]; destruct b as [|y b].
  - reflexivity.
  - apply Permutation_nil_cons in H. contradiction.
  - apply Permutation_sym, Permutation_nil_cons in H. contradiction.
  - unfold ba_dtype, dsum_of. f_equal. apply dsum_fold_perm. exact H.
Qed.
Print Assumptions C04_assembler_dtype_order_independent.

(** ... and, for integer blocks of at most 32 bits, it holds every value of every block:
    copying a block into the working array changes no pixel *)
Theorem C04_assembler_dtype_holds_every_block :
  forall dts d, Forall dt_valid dts -> Forall narrow_int dts -> In d dts -> dt_holds d (ba_dtype dts).
Proof.
  intros dts d V N Hd. destruct dts as [|x l]; [destruct Hd|]. unfold ba_dtype, dsum_of.
  apply dsum_result_holds.
  - apply dsum_fold_ok; [unfold dsum_ok; cbn; lia | exact V | exact N].
  - rewrite Forall_forall in V. exact (V d Hd).
  - apply bits_le_fold. right. exact Hd.
Qed.
Print Assumptions C04_assembler_dtype_holds_every_block.

(** an explicitly requested dtype is the dtype of the result, whatever the fill value *)
Theorem C04_assembler_explicit_dtype_wins :
  forall d r f, ba_extract_dtype_opt d (Some r) f = r.
Proof.
  reflexivity.
Qed.
Print Assumptions C04_assembler_explicit_dtype_wins.

(** a requested Y/X window (ry, rx) — ints, open or negative slices — is normalised
    against the mosaic shape (C17: the normalised slice selects the same elements) and, unless
    start exceeds stop after that, the result has the extra axes unchanged *)
Theorem C04_assembler_window :
  forall a pre post ny nx ry rx,
    ba_shape a = pre ++ [ny; nx] ++ post -> ba_axis a = len pre -> nonneg pre -> nonneg post ->
    let wy := norm_ss ry ny in
    let wx := norm_ss rx nx in
    fst wy <= snd wy -> fst wx <= snd wx ->
    exists nroi full, ba_plan a (Some [ry; rx]) = Ok (nroi, (wy, wx), full, full) /\
                      full = pre ++ [snd wy - fst wy; snd wx - fst wx] ++ post.
Proof. exact ba_plan_yx. Qed.
Print Assumptions C04_assembler_window.

(** the link to C17: what the three-way intersection of a tile [t0,t1) and a window
    [w0,w1) means for the numpy views extract() copies between *)
Theorem C04_intersect3_views :
  forall t0 t1 w0 w1, 0 <= t0 <= t1 -> 0 <= w0 <= w1 ->
    exists s' d' ab',
      slice_intersect3 (mk_sl (t0, t1)) (mk_sl (w0, w1)) = Ok (s', d', ab') /\
      let es := eff (t1 - t0) s' in
      let ed := eff (w1 - w0) d' in
      snd es = snd ed /\
      (forall y, inside ed y = true <-> (0 <= y < w1 - w0 /\ t0 <= w0 + y < t1)) /\
      (forall y, inside ed y = true -> fst es + (y - fst ed) = w0 + y - t0).
Proof. exact intersect3_axis. Qed.
Print Assumptions C04_intersect3_views.

(** assembly: for every tiling, every subset of present blocks (distinct keys, each block
    as large as its tile), every window with 0 <= start <= stop (it may exceed the
    mosaic), every re-indexing of the extra axes and every cast, extract succeeds, has the
    window's shape and at every pixel holds the (cast) value of the block of the tile
    containing that pixel if that block is present, else the fill value *)
Theorem C04_assembly :
  forall (E V W : Type) (cast : V -> W) (esel : E -> E) (t : vtiles) (fill : W)
         (w : (Z * Z) * (Z * Z)),
    rt_wf (RVar t) ->
    0 <= fst (fst w) <= snd (fst w) -> 0 <= fst (snd w) <= snd (snd w) ->
    forall bl : list ((Z * Z) * arr (E:=E) V),
    NoDup (map fst bl) -> Forall (block_ok t) bl ->
    exists out, extract_yx cast esel t bl fill w = Ok out /\ a_sh out = roi_shape2 w /\
      forall e y x, 0 <= y < fst (roi_shape2 w) -> 0 <= x < snd (roi_shape2 w) ->
        a_at out e y x = mosaic cast t fill bl (esel e) (fst (fst w) + y) (fst (snd w) + x).
Proof. exact @extract_spec. Qed.
Print Assumptions C04_assembly.

(** Non-vacuity and recorded corner cases (evaluated, not assumed). *)
Example C04_ex_regular :
  (t <- tiles_init (10, 7) (4, 3) ;;
   r <- tiles_getitem t (int_idx (-1, 2)) ;; l <- tiles_locate t (9, 6) ;; c <- tiles_chunks t ;;
   Ok (t_shape t, r, l, c)) = Ok ((3, 3), ((8, 10), (6, 7)), (2, 2), ([4; 4; 2], [3; 3; 1])).
Proof. vm_compute. reflexivity. Qed.

Example C04_ex_tile_larger_than_image :
  (t <- tiles_init (3, 3) (10, 10) ;; r <- tiles_getitem t (int_idx (0, 0)) ;; Ok (t_shape t, r))
  = Ok ((1, 1), ((0, 3), (0, 3))).
Proof. vm_compute. reflexivity. Qed.

Example C04_ex_variable :
  (v <- vt_init [3; 1; 4] [2; 5] ;;
   r <- vt_getitem v (int_idx (-1, 0)) ;; l <- vt_locate v (3, 2) ;; s <- vt_tile_shape v (-1, -1) ;;
   Ok (r, l, s)) = Ok (((4, 8), (0, 2)), (1, 1), (4, 5)).
Proof. vm_compute. reflexivity. Qed.

(** the repaired index validation: below -shape is an IndexError (used to wrap around) *)
Example C04_ex_variable_negative_out_of_range :
  (v <- vt_init [3; 1; 4] [2; 5] ;; vt_getitem v (int_idx (-5, 0))) = Err EIndex.
Proof. vm_compute. reflexivity. Qed.

(** Tiles[S:S] at the very end: IndexError for regular tiles, an empty region for
    variable ones (outside [valid_block]; decided not to be a finding, DESIGN section 6) *)
Example C04_ex_empty_selection_at_end :
  (t <- tiles_init (10, 7) (4, 3) ;; tiles_getitem t (mk_roi ((3, 3), (0, 1)))) = Err EIndex /\
  (t <- tiles_init (10, 7) (4, 3) ;; tiles_getitem t (mk_roi ((2, 2), (0, 1)))) = Ok ((8, 8), (0, 3)) /\
  (v <- vt_init [3; 1; 4] [2; 5] ;; vt_getitem v (mk_roi ((3, 3), (0, 1)))) = Ok ((8, 8), (0, 2)).
Proof. vm_compute. auto. Qed.

(** with an empty base, tile_shape((-1, ..)) answers the tile size instead of raising
    (outside the property: base sizes >= 1) *)
Example C04_ex_empty_base_quirk :
  (t <- tiles_init (0, 5) (4, 3) ;; tiles_tile_shape t (-1, 0)) = Ok (4, 3).
Proof. vm_compute. reflexivity. Qed.

(** the bound "total < 2^63" of C04_vtiles_init is needed: beyond it the int64 offsets wrap *)
Example C04_ex_offsets_wrap_beyond_int64 :
  (v <- vt_init [4611686018427387904; 4611686018427387904; 5] [1] ;; vt_base v)
  = Ok (-9223372036854775803, 1).
Proof. vm_compute. reflexivity. Qed.

(** narrow block first, wide block second: the common type is the wide one; int16, uint16 and
    float32 give float32 (not the pairwise float64); uint64 with a signed block gives float64,
    which is why the value theorem asks for integers of at most 32 bits *)
Example C04_ex_dtype :
  ba_dtype [DU 8; DU 16] = DU 16 /\ ba_dtype [DI 16; DU 16; DF 32] = DF 32 /\
  ba_dtype [DU 32; DI 8] = DI 64 /\ ba_dtype [DU 64; DI 8] = DF 64 /\ ba_dtype [] = DF 32.
Proof. vm_compute. auto. Qed.

(** assembly of a 2x2 layout with one present block, window straddling all four tiles *)
Example C04_ex_assembly :
  (t <- vt_init [2; 2] [2; 3] ;;
   out <- extract_yx (E:=unit) (fun v : Z => v) (fun e => e) t
            [((1, 1), Build_arr (2, 3) (fun _ y x => 10 * y + x))] (-1) ((1, 4), (1, 4)) ;;
   Ok (map (fun y => map (fun x => a_at out tt y x) [0; 1; 2]) [0; 1; 2]))
  = Ok [[-1; -1; -1]; [-1; 0; 1]; [-1; 10; 11]].
Proof. vm_compute. reflexivity. Qed.

(** Tie to the source: the tile-count expression of [Tiles.__init__] and the nested helpers
    [Tiles.__getitem__._slice] and [Tiles.tile_shape._sz] as regenerated by tools/py2v from the
    current odc/geo/roi.py (coq/Gen/TilesGen.v, rewritten on every run) are the model
    (Model/Tiles.v) the theorems above are stated on. *)
From OG Require Proofs.TilesGenEquiv.
Theorem C04_source_is_model : OG.Proofs.TilesGenEquiv.tiles_source_is_model.
Proof. exact OG.Proofs.TilesGenEquiv.tiles_source_is_model_holds. Qed.
Print Assumptions C04_source_is_model.
