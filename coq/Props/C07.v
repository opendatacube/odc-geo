(** Property C07 — geometry reprojection and densification are faithful.
    The statements, each proved in a few lines from Proofs/DensifyProofs.v and
    followed by [Print Assumptions].

    Reading guide.  Coordinates are exact rationals.  [densify_gen repaired sq] /
    [segmented_gen repaired sq] / [to_crs_gen ... repaired sq] are the models of
    odc.geo.geom.densify / Geometry.segmented / Geometry.to_crs as they stand
    in the repo branch (Model/Densify.v); [sq] is ANY function returning
    non-negative square roots ([sqrt_spec]) — the executable instance is
    [exact_sqrt] — and in the per-segment statements the segment length [L] is a
    universally quantified number with [0 < L] and [L * L == sqdist p1 p2].
    The projection, CRS equality, validity/repair and antimeridian helpers are
    universally quantified functions (oracles).  The predicates [max_gap],
    [refines], [subseq], [path_len], ... are defined in Model/DensifySpec.v. *)
From Coq Require Import ZArith QArith List Bool.
From OG Require Import Base.Result Model.Densify Model.DensifySpec Proofs.DensifyProofs.
Import ListNotations.
Open Scope Q_scope.

(** a successful densification was asked with a positive resolution, inserts
    between consecutive vertices only points p1 + t (p2 - p1), 0 < t1 < ... < tn < 1,
    and leaves no two consecutive output points more than [r] apart *)
Theorem C07_densify_refines_and_max_gap :
  forall sq, sqrt_spec sq -> forall cs r out,
    densify_gen repaired sq cs r = Ok out ->
    0 < r /\ refines cs out /\ max_gap r out.
Proof. exact densify_spec. Qed.
Print Assumptions C07_densify_refines_and_max_gap.

(** it succeeds for every positive resolution and every coordinate list whose
    edges have a root under [sq] ... *)
Theorem C07_densify_total :
  forall sq, sqrt_spec sq -> forall cs r,
    0 < r -> roots_exist sq cs -> exists out, densify_gen repaired sq cs r = Ok out.
Proof. exact densify_total. Qed.
Print Assumptions C07_densify_total.

(** ... and fails only with ValueError for a non-positive resolution or, in the
    executable model, on a long edge of irrational length (never IndexError, never
    a loop that does not finish) *)
Theorem C07_densify_errors :
  forall sq, sqrt_spec sq -> forall cs r e,
    densify_gen repaired sq cs r = Err e ->
    (e = EValue /\ r <= 0) \/
    (e = EOther /\ 0 < r /\
     exists p q, adjacent p q cs /\ r * r <= sqdist p q /\ sq (sqdist p q) = None).
Proof.
  intros sq Hsq cs r e H. pose proof (densify_result sq Hsq cs r) as S. rewrite H in S. exact S.
Qed.
Print Assumptions C07_densify_errors.

Theorem C07_densify_nonpositive_resolution_is_ValueError :
  forall sq cs r, r <= 0 -> densify_gen repaired sq cs r = Err EValue.
Proof.
  intros sq cs r H. unfold densify_gen. cbn [fx_posres repaired andb].
  apply Qle_bool_iff in H. rewrite H. reflexivity.
Qed.
Print Assumptions C07_densify_nonpositive_resolution_is_ValueError.

(** the executable square root meets the contract *)
Theorem C07_exact_sqrt_is_a_root : sqrt_spec exact_sqrt.
Proof. exact exact_sqrt_spec. Qed.
Print Assumptions C07_exact_sqrt_is_a_root.

(** the algebraic core with the root as a variable: on a segment of length [L]
    points at arc lengths [a], [b] are |b - a| apart, the point at [a] is L - a
    from the end; hence the loop, which steps by [r] while [d < L], leaves gaps of
    exactly r and a last gap L - d <= r *)
Theorem C07_segment_gap_algebra :
  forall p1 p2 L a b, 0 < L -> L * L == sqdist p1 p2 ->
    sqdist (lerp p1 p2 (a / L)) (lerp p1 p2 (b / L)) == (b - a) * (b - a) /\
    sqdist (lerp p1 p2 (a / L)) p2 == (L - a) * (L - a).
Proof.
  intros p1 p2 L a b HL H. split.
  - exact (sqdist_at p1 p2 L _ _ a b HL H (pt_eq_refl _) (pt_eq_refl _)).
  - exact (sqdist_at p1 p2 L _ _ a L HL H (pt_eq_refl _) (interpolate_end p1 p2 L HL)).
Qed.
Print Assumptions C07_segment_gap_algebra.

Theorem C07_loop_gaps :
  forall p1 p2 L r, 0 < L -> 0 < r -> L * L == sqdist p1 p2 ->
  forall fuel mid, dloop fuel p1 p2 L r r = Some mid ->
    max_gap r (p1 :: mid ++ [p2]) /\
    exists ts, mid = map (lerp p1 p2) ts /\ increasing 0 ts 1.
Proof.
  intros p1 p2 L r HL Hr H fuel mid Hd.
  destruct (dloop_spec p1 p2 L r HL Hr H fuel mid Hd) as [Hch Hts].
  split; [apply chain_max_gap; exact Hch | exact Hts].
Qed.
Print Assumptions C07_loop_gaps.

Theorem C07_loop_terminates :
  forall p1 p2 L r, 0 < L -> 0 < r -> L * L == sqdist p1 p2 ->
    exists mid, dloop (seg_fuel L r) p1 p2 L r r = Some mid.
Proof. intros p1 p2 L r HL Hr _. exact (dloop_total p1 p2 L r HL Hr). Qed.
Print Assumptions C07_loop_terminates.

(** original vertices are retained, in order; first and last vertex are kept *)
Theorem C07_refines_keeps_vertices_in_order :
  forall cs out, refines cs out ->
    subseq cs out /\ hd_error out = hd_error cs /\ (forall d, last out d = last cs d) /\
    (length cs <= length out)%nat.
Proof.
  intros cs out H. repeat split.
  - exact (refines_subseq cs out H).
  - exact (refines_hd cs out H).
  - intros d. exact (refines_last cs out d H).
  - exact (refines_length cs out H).
Qed.
Print Assumptions C07_refines_keeps_vertices_in_order.

(** every output point is an original vertex or lies strictly inside an original edge *)
Theorem C07_refines_added_points_on_edges :
  forall cs out, refines cs out -> forall x, In x out ->
    In x cs \/ exists p1 p2 t, adjacent p1 p2 cs /\ 0 < t /\ t < 1 /\ x = lerp p1 p2 t.
Proof. exact refines_points. Qed.
Print Assumptions C07_refines_added_points_on_edges.

(** the shoelace sum (twice the signed area of a ring) is unchanged *)
Theorem C07_refines_preserves_shoelace :
  forall cs out, refines cs out -> shoelace2 out == shoelace2 cs.
Proof. exact refines_shoelace. Qed.
Print Assumptions C07_refines_preserves_shoelace.

(** the polyline length is unchanged (for every polyline that has a rational
    length; lengths are unique) *)
Theorem C07_refines_preserves_length :
  forall cs out, refines cs out -> forall Lc, path_len cs Lc ->
    (exists Lo, path_len out Lo) /\ (forall Lo, path_len out Lo -> Lo == Lc).
Proof.
  intros cs out H Lc Hc. destruct (refines_path_len cs out H Lc Hc) as (Lo & HLo & E).
  split; [exists Lo; exact HLo|].
  intros Lo' H'. rewrite (path_len_unique out Lo' Lo H' HLo). exact E.
Qed.
Print Assumptions C07_refines_preserves_length.

(** the edge pieces, with the edge length as a variable: the parts between
    parameters s <= t of an edge of length l have length (t - s) l *)
Theorem C07_edge_pieces_length :
  forall p1 p2 l s t, seg_len p1 p2 l -> s <= t ->
    seg_len (lerp p1 p2 s) (lerp p1 p2 t) ((t - s) * l).
Proof.
  intros p1 p2 l s t H Hst.
  exact (seg_len_piece p1 p2 l _ _ s t H (pt_eq_refl _) (pt_eq_refl _) Hst).
Qed.
Print Assumptions C07_edge_pieces_length.

(** for every geometry kind: same constructor and part / ring structure; every
    coordinate sequence is refined (points and multi-points unchanged); no edge
    longer than the resolution; area unchanged *)
Theorem C07_segmented_faithful :
  forall sq, sqrt_spec sq -> forall r g g',
    segmented_gen repaired sq r g = Ok g' ->
    kind_skeleton g' = kind_skeleton g /\
    Forall2 refines (paths g) (paths g') /\
    Forall (max_gap r) (paths g') /\
    geom_area g' == geom_area g.
Proof. exact segmented_spec. Qed.
Print Assumptions C07_segmented_faithful.

Theorem C07_segmented_preserves_length :
  forall sq, sqrt_spec sq -> forall r g g',
    segmented_gen repaired sq r g = Ok g' ->
    forall L, paths_len (paths g) L -> exists L', paths_len (paths g') L' /\ L' == L.
Proof.
  intros sq Hsq r g g' H. destruct (segmented_spec sq Hsq r g g' H) as (_ & H2 & _).
  exact (refines_paths_len _ _ H2).
Qed.
Print Assumptions C07_segmented_preserves_length.

Theorem C07_segmented_total :
  forall sq, sqrt_spec sq -> forall r, 0 < r -> forall g,
    Forall (roots_exist sq) (paths g) -> exists g', segmented_gen repaired sq r g = Ok g'.
Proof.
  intros sq Hsq r Hr g H.
  destruct (segmented_gen repaired sq r g) as [g'|e] eqn:E; [eauto|].
  destruct (segmented_err_path sq r g e E) as (cs & Hin & Hc).
  rewrite Forall_forall in H.
  destruct (densify_total sq Hsq cs r Hr (H cs Hin)) as [out Ho]. congruence.
Qed.
Print Assumptions C07_segmented_total.

Theorem C07_segmented_errors :
  forall sq, sqrt_spec sq -> forall r g e,
    segmented_gen repaired sq r g = Err e -> (e = EValue /\ r <= 0) \/ (e = EOther /\ 0 < r).
Proof.
  intros sq Hsq r g e H. destruct (segmented_err_path sq r g e H) as (cs & _ & Hc).
  exact (densify_err_kind sq Hsq cs r e Hc).
Qed.
Print Assumptions C07_segmented_errors.

(** the computable length [path_length] of a coordinate sequence is a length in the sense
    of [path_len].  [geom_length] adds these up over [paths g]; nothing is stated of the sum.
    (The model's lengths are compared with shapely's in the correspondence run.) *)
Theorem C07_path_length_sound :
  forall sq, sqrt_spec sq -> forall l L, path_length sq l = Some L -> path_len l L.
Proof. exact path_length_sound. Qed.
Print Assumptions C07_path_length_sound.

(** shapely.ops.transform, as a structural map, preserves constructor, part / ring
    structure and vertex counts, and maps vertex number i to [f] of vertex number i *)
Theorem C07_transform_structure_and_vertices :
  forall f g, skeleton (gmap f g) = skeleton g /\
              vertices (gmap f g) = map f (vertices g) /\
              paths (gmap f g) = map (map f) (paths g).
Proof. intros f g. repeat split; [apply gmap_skeleton | apply gmap_vertices | apply gmap_paths]. Qed.
Print Assumptions C07_transform_structure_and_vertices.

Section Oracles.
  Variable crs : Type.
  Variable crs_eqb : crs -> crs -> bool.
  Variable geographic : crs -> bool.
  Variable proj : crs -> crs -> pt -> pt.
  Variable is_valid : geom -> bool.
  Variable repair chop_antimeridian clip_lon180 : geom -> geom.
  Variable sq : Q -> option Q.

  Let to_crs := to_crs_gen crs crs_eqb geographic proj is_valid repair chop_antimeridian clip_lon180
                           repaired sq.
  Let plain := plain crs geographic is_valid.

  (** a target that normalises to None, or a geometry without CRS: ValueError *)
  Theorem C07_to_crs_errors :
    forall self g c rs w cf,
      to_crs self g None rs w cf = Err EValue /\ to_crs None g (Some c) rs w cf = Err EValue.
  Proof. intros. split; reflexivity. Qed.

  (** already in the target CRS: the very same object, whatever the other arguments;
      and only then *)
  Theorem C07_to_crs_same_crs_returns_self :
    forall s c g rs w cf, crs_eqb s c = true -> to_crs (Some s) g (Some c) rs w cf = Ok Same.
  Proof. intros s c g rs w cf H. unfold to_crs, to_crs_gen. rewrite H. reflexivity. Qed.

  Theorem C07_to_crs_self_only_for_same_crs :
    forall self g target rs w cf, to_crs self g target rs w cf = Ok Same ->
      exists s c, self = Some s /\ target = Some c /\ crs_eqb s c = true.
  Proof.
    intros self g target rs w cf. unfold to_crs, to_crs_gen.
    destruct target as [c|]; [|discriminate]. destruct self as [s|]; [|discriminate].
    destruct (crs_eqb s c) eqn:E; [eauto|].
    intros H. apply bind_ok in H. destruct H as (rs' & Hrs & H).
    apply bind_ok in H. destruct H as (g1 & Hg1 & H).
    destruct (w && geographic c); discriminate.
  Qed.

  (** no densification (resolution None, inf/nan, or not positive): the point-wise image; here
      and in the next theorem with the flags at their defaults, or without effect ([plain]) *)
  Theorem C07_to_crs_maps_every_vertex :
    forall s c g rs w cf, crs_eqb s c = false ->
      (rs = RNone \/ rs = RNonFinite \/ exists r, rs = RNum r /\ r <= 0) ->
      plain w cf c (gmap (proj s c) g) ->
      to_crs (Some s) g (Some c) rs w cf = Ok (Fresh (gmap (proj s c) g) c).
  Proof.
    intros s c g rs w cf H Hrs [Hw Hv]. unfold to_crs, to_crs_gen. rewrite H.
    destruct Hrs as [->|[->|(r & -> & Hr)]]; simpl.
    3: assert (E : Qltb 0 r = false) by (apply QMinMax.Qlt_bool_false; exact Hr); rewrite E; simpl.
    all: rewrite Hw, Hv; reflexivity.
  Qed.

  (** positive resolution: the point-wise image of the densified geometry;
      "auto" is the resolution computed by [auto_resolution] *)
  Theorem C07_to_crs_densifies_then_maps :
    forall s c g r g1 w cf, crs_eqb s c = false -> 0 < r ->
      segmented_gen repaired sq r g = Ok g1 ->
      plain w cf c (gmap (proj s c) g1) ->
      to_crs (Some s) g (Some c) (RNum r) w cf = Ok (Fresh (gmap (proj s c) g1) c).
  Proof.
    intros s c g r g1 w cf H Hr Hg [Hw Hv]. unfold to_crs, to_crs_gen. rewrite H. simpl.
    assert (E : Qltb 0 r = true) by (apply QMinMax.Qlt_bool_true; exact Hr). rewrite E, Hg. simpl.
    rewrite Hw, Hv; reflexivity.
  Qed.

  Theorem C07_to_crs_auto :
    forall s c g a w cf, crs_eqb s c = false -> auto_resolution sq g = Ok a ->
      to_crs (Some s) g (Some c) RAuto w cf = to_crs (Some s) g (Some c) (RNum a) w cf.
  Proof.
    intros s c g a w cf H Ha. unfold to_crs, to_crs_gen. rewrite H. simpl. rewrite Ha. reflexivity.
  Qed.

  (** summary for the default flags, every resolution: the result is the point-wise
      image of the geometry or of a densification of it with a positive resolution *)
  Theorem C07_to_crs_faithful :
    forall self g target rs g' c',
      to_crs self g target rs false false = Ok (Fresh g' c') ->
      exists s, self = Some s /\ target = Some c' /\ crs_eqb s c' = false /\
        exists g1, g' = gmap (proj s c') g1 /\
                   (g1 = g \/ exists r, 0 < r /\ segmented_gen repaired sq r g = Ok g1).
  Proof. exact (to_crs_faithful crs crs_eqb geographic proj is_valid repair chop_antimeridian clip_lon180 sq). Qed.
End Oracles.
Print Assumptions C07_to_crs_errors.
Print Assumptions C07_to_crs_same_crs_returns_self.
Print Assumptions C07_to_crs_self_only_for_same_crs.
Print Assumptions C07_to_crs_maps_every_vertex.
Print Assumptions C07_to_crs_densifies_then_maps.
Print Assumptions C07_to_crs_auto.
Print Assumptions C07_to_crs_faithful.

Example C07_ex_densify :
  densify [(0, 0); (48, 64); (48, 65)] 15 =
  Ok [(0, 0); (720 # 80, 960 # 80); (1440 # 80, 1920 # 80); (2160 # 80, 2880 # 80);
      (2880 # 80, 3840 # 80); (3600 # 80, 4800 # 80); (48, 64); (48, 65)].
Proof. vm_compute. reflexivity. Qed.

Example C07_ex_roots_exist : roots_exist exact_sqrt [(0, 0); (48, 64); (48, 65)].
Proof.
  apply roots_exist_cons; [vm_compute; discriminate|].
  apply roots_exist_cons; [vm_compute; discriminate|].
  apply roots_exist_one.
Qed.

Example C07_ex_segmented_polygon_with_hole :
  segmented 4 (Multi MCollection
                 [Point (1, 2);
                  Polygon [(0, 0); (0, 8); (8, 8); (8, 0); (0, 0)] [[(2, 2); (6, 2); (2, 5); (2, 2)]]]) =
  Ok (Multi MCollection
        [Point (1, 2);
         Polygon [(0, 0); (0 # 8, 32 # 8); (0, 8); (32 # 8, 64 # 8); (8, 8); (64 # 8, 32 # 8); (8, 0);
                  (32 # 8, 0 # 8); (0, 0)]
                 [[(2, 2); (6, 2); (14 # 5, 22 # 5); (2, 5); (2, 2)]]]).
Proof. vm_compute. reflexivity. Qed.

Example C07_ex_to_crs_auto :
  to_crs_gen Z Z.eqb (fun _ => false) (fun _ _ p => (snd p, fst p + 1)) (fun _ => true)
             (fun g => g) (fun g => g) (fun g => g) repaired exact_sqrt
             (Some 1%Z) (Polygon [(0, 0); (0, 100); (100, 100); (100, 0); (0, 0)] []) (Some 2%Z)
             RAuto false false
  = Ok (Fresh (gmap (fun p => (snd p, fst p + 1))
                    (match segmented (100 * 4 / 100) (Polygon [(0, 0); (0, 100); (100, 100); (100, 0); (0, 0)] [])
                     with Ok g => g | Err _ => Point (0, 0) end)) 2%Z).
Proof.
  destruct (C07_segmented_total exact_sqrt exact_sqrt_spec (100 * 4 / 100) eq_refl
              (Polygon [(0, 0); (0, 100); (100, 100); (100, 0); (0, 0)] [])) as [g1 Hg].
  { constructor; [|constructor].
    do 4 (apply roots_exist_cons; [vm_compute; discriminate|]). apply roots_exist_one. }
  unfold segmented. rewrite Hg.
  rewrite (C07_to_crs_auto _ _ _ _ _ _ _ _ _ _ _ _ (100 * 4 / 100)); [|reflexivity..].
  apply C07_to_crs_densifies_then_maps; [reflexivity | reflexivity | exact Hg | split; reflexivity].
Qed.

(** Each of the four repairs made under this property is necessary: with the
    corresponding switch of [fixes] off the model violates the statement; the
    witnesses are replayed on the implementation from corpus/C07/ (where they now
    pass). *)

(* F1 (8b793ae): short_enough compared p1.x^2 + p2.x^2 with res^2 *)
Theorem C07_unrepaired_short_enough_refuted :
  exists cs r out,
    0 < r /\ densify_gen (Build_fixes false true true true) exact_sqrt cs r = Ok out /\
    ~ max_gap r out.
Proof.
  exists [(0, 0); (0, 100)], 10, [(0, 0); (0, 100)].
  split; [reflexivity|]. split; [vm_compute; reflexivity|].
  intros H. specialize (H 0%nat (0, 0) (0, 100) eq_refl eq_refl).
  vm_compute in H. apply H. reflexivity.
Qed.
Print Assumptions C07_unrepaired_short_enough_refuted.

(* 0d98c78: for a resolution <= 0 the densify loop never finishes, whatever the fuel *)
Theorem C07_unrepaired_nonpositive_resolution_refuted :
  (forall p1 p2 L r fuel d, r <= 0 -> d < L -> dloop fuel p1 p2 L r d = None) /\
  densify_gen (Build_fixes true false true true) exact_sqrt [(0, 0); (3, 4)] 0 = Err ERuntime.
Proof.
  split; [intros; apply dloop_diverges; assumption | vm_compute; reflexivity].
Qed.
Print Assumptions C07_unrepaired_nonpositive_resolution_refuted.

(* b9d25ee: an empty coordinate list (empty LineString / Polygon) raised IndexError *)
Theorem C07_unrepaired_empty_refuted :
  densify_gen (Build_fixes true true false true) exact_sqrt [] 1 = Err EIndex /\
  segmented_gen (Build_fixes true true false true) exact_sqrt 1 (Polygon [] []) = Err EIndex.
Proof. split; vm_compute; reflexivity. Qed.
Print Assumptions C07_unrepaired_empty_refuted.

(* ecfe9c0: to_crs(resolution="auto") on a zero-area geometry densified with
   resolution 0 and never returned *)
Theorem C07_unrepaired_auto_zero_area_refuted :
  forall crs crs_eqb geographic proj is_valid repair chop clip (s c : crs) w cf,
    crs_eqb s c = false ->
    to_crs_gen crs crs_eqb geographic proj is_valid repair chop clip
               (Build_fixes true false true false) exact_sqrt
               (Some s) (Line [(0, 0); (3, 4)]) (Some c) RAuto w cf = Err ERuntime.
Proof.
  intros crs crs_eqb geographic proj is_valid repair chop clip s c w cf H.
  unfold to_crs_gen. rewrite H. vm_compute. reflexivity.
Qed.
Print Assumptions C07_unrepaired_auto_zero_area_refuted.
