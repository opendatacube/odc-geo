(** Property C19 — value objects: equality, hashing, pickling, dask tokens and
    the CRS / transformer caches are coherent.

    Theorems, each an [exact] of a lemma of Proofs/ or a few lines from such lemmas,
    followed by [Print Assumptions]; the refutations and examples are evaluated on the
    oracle [toy] of Proofs/C19WitnessProofs.v.

    Part (a): [W : oracle] are the CPython-string / pyproj oracles, [contracts W]
    their contracts (Model/CrsCache.v); [run W init h] is the state of the
    module after an arbitrary history [h] of CRS constructions from any kind of
    specification, [to_epsg()] calls, [==], deletions, garbage collections,
    pyproj-object creations and transformer requests (operations that raise
    are skipped), with object ids chosen by an arbitrary allocator that may
    reuse the id of any dead object.
    Part (b): per value type, [*_eqb] is [==], [*_hashkey] what [hash()] hashes,
    [*_token] what the dask token is computed from, [*_pickle] the unpickled
    clone; [crs_laws W D reload] are the laws of CRS instances of one state
    (theorem [C19_crs_laws_from_contracts] derives them from the contracts). *)
From Coq Require Import QArith List.
From OG Require Import Base.Result Model.CrsCache Model.ValueObjs
  Proofs.CrsCacheProofs Proofs.CrsHistoryProofs Proofs.ValueObjsProofs Proofs.C19WitnessProofs.
Import ListNotations.
Open Scope Z_scope.

(** * (a) caches *)

(** after any history: live objects have distinct ids, everything the caches and the user's
    variables reference is alive with the recorded content, and every id used in a
    transformer-cache key belongs to an object held by [_crs_cache] *)
Theorem C19_cache_invariant : forall W h, inv (run W init h).
Proof. exact reachable_inv. Qed.
Print Assumptions C19_cache_invariant.

Theorem C19_transformer_keys_pinned :
  forall W h i j xy d, In ((i, j, xy), d) (tcache (run W init h)) ->
    snd d = xy /\ In (i, fst (fst d)) (heap (run W init h)) /\ In (j, snd (fst d)) (heap (run W init h)) /\
    pinned (run W init h) i /\ pinned (run W init h) j.
Proof. intros W h. exact (inv_tc _ (reachable_inv W h)). Qed.
Print Assumptions C19_transformer_keys_pinned.

(** an object held by [_crs_cache] is never freed: whatever happens later it is alive under the
    same id with the same content (so its id cannot be given to another object) *)
Theorem C19_pinned_objects_persist :
  forall W h h' id s, pinned (run W init h) id -> In (id, s) (heap (run W init h)) ->
    In (id, s) (heap (run W (run W init h) h')) /\ pinned (run W (run W init h) h') id /\
    NoDup (map fst (heap (run W (run W init h) h'))).
Proof.
  intros W h h' id s P H. destruct (run_pinned W h' _ id s (reachable_inv W h) P H) as (A & B).
  split; [exact A|]. split; [exact B|]. exact (inv_nodup _ (run_inv W h' _ (reachable_inv W h))).
Qed.
Print Assumptions C19_pinned_objects_persist.

Theorem C19_transformer_ids_not_reusable :
  forall W h i j xy d srs, In ((i, j, xy), d) (tcache (run W init h)) ->
    alloc (run W init h) i srs = Err (EAssert 1) /\ alloc (run W init h) j srs = Err (EAssert 1).
Proof. intros W h i j xy d srs. exact (transformer_ids_not_reusable (run W init h) i j xy d srs (reachable_inv W h)). Qed.
Print Assumptions C19_transformer_ids_not_reusable.

(** the transformer handed out for (a, b, always_xy) after any history — cached or new — was built
    for exactly the two pyproj objects a and b point to *)
Theorem C19_transformer_for_exact_pair :
  forall W h i j xy a b st' d,
    get_var (run W init h) i = Ok a -> get_var (run W init h) j = Ok b ->
    step W (run W init h) (OpTransformer i j xy) = Ok (st', OTr d) ->
    d = (c_srs a, c_srs b, xy) /\ In (c_id a, c_srs a) (heap (run W init h)) /\ In (c_id b, c_srs b) (heap (run W init h)).
Proof.
  intros W h i j xy a b st' d Ha Hb H. split.
  - exact (transformer_exact W _ i j xy a b st' d (reachable_inv W h) Ha Hb H).
  - split; [exact (proj1 (inv_vars _ (reachable_inv W h) a (get_var_In _ _ _ Ha)))
           | exact (proj1 (inv_vars _ (reachable_inv W h) b (get_var_In _ _ _ Hb)))].
Qed.
Print Assumptions C19_transformer_for_exact_pair.

(** * (a) string form / hash / token of CRS(spec) and the history *)

(** with nothing cached, CRS(spec) has the canonical string form of the object pyproj builds *)
Theorem C19_crs_str_fresh :
  forall W s nid st1 v srs,
    closed s = true -> spec_srs W s = Some srs -> crs_new W init s nid = Ok (st1, v) ->
    c_str v = fresh_str W srs /\ crs_hashkey v = fresh_str W srs /\ crs_token v = fresh_str W srs.
Proof. intros W s nid st1 v srs C S H. pose proof (crs_str_fresh W s nid st1 v srs C S H) as E. auto. Qed.
Print Assumptions C19_crs_str_fresh.

(** FULL STATEMENT REFUTED (open finding crs-history:pyproj-vs-wkt-key, F15): there are histories after which
    CRS(spec) has another string form (hence hash and token) than in a fresh interpreter *)
Theorem C19_crs_str_history_independent_refuted :
  exists W, contracts W /\ exists h s n n' st st' v v',
    closed s = true /\ crs_new W (run W init h) s n = Ok (st, v) /\ crs_new W init s n' = Ok (st', v') /\
    c_str v <> c_str v'.
Proof.
  (* CRS(<pyproj object of EPSG:4326>) after CRS(<its WKT>) is the instance cached for the WKT string *)
  exists toy. split; [exact toy_contracts|].
  exists [OpCRS (SpStr 3) 100], (SpPyNew 1), 101, 102. do 4 eexists.
  split; [reflexivity|]. split; [vm_compute; reflexivity|]. split; [vm_compute; reflexivity|].
  vm_compute. discriminate.
Qed.
Print Assumptions C19_crs_str_history_independent_refuted.

(** PARTIAL: history independence holds whenever no cached key that CPython's dict treats as equal to the
    key of [spec] carries another string form.  (Missing for the full statement: a pyproj object used as
    key is equal, as a dict key, to its own WKT text and to pyproj-equal objects of another spelling.) *)
Theorem C19_crs_str_history_independent_partial :
  forall W h s nid st1 v srs,
    closed s = true -> spec_srs W s = Some srs ->
    crs_new W (run W init h) s nid = Ok (st1, v) ->
    coherent_for W (run W init h) (make_key W (spec_mspec s nid srs)) (fresh_str W srs) ->
    c_str v = fresh_str W srs.
Proof. intros W h s nid st1 v srs. exact (crs_str_partial W (run W init h) s nid st1 v srs). Qed.
Print Assumptions C19_crs_str_history_independent_partial.

(** ... in particular, unconditionally, for EPSG codes and strings in any spelling after histories made of
    integer / string / CRS-copy / pickle constructions, to_epsg, ==, del, gc, pyproj-object creation and
    transformer requests (everything except handing pyproj objects or PROJJSON dicts to CRS()) *)
Theorem C19_crs_str_history_independent_string_specs :
  forall W, contracts W -> forall h s nid nid' st1 st1' v v',
    forallb strkey_op h = true -> (exists n, s = SpInt n) \/ (exists t, s = SpStr t) ->
    crs_new W (run W init h) s nid = Ok (st1, v) -> crs_new W init s nid' = Ok (st1', v') ->
    c_str v = c_str v' /\ crs_hashkey v = crs_hashkey v' /\ crs_token v = crs_token v'.
Proof.
  intros W K h s nid nid' st1 st1' v v' F Hs H H'.
  pose proof (crs_str_history_independent_strings W K h s nid nid' st1 st1' v v' F Hs H H') as E. auto.
Qed.
Print Assumptions C19_crs_str_history_independent_string_specs.

(** * (a) lossless-equivalent specifications *)

(** two closed specifications (EPSG integer, string in any letter case, WKT, PROJJSON dict, pyproj object)
    denoting pyproj-equal objects give == instances, whatever was constructed, dropped or collected before
    either construction, and whether or not to_epsg() was called on either *)
Theorem C19_lossless_specs_equal :
  forall W, contracts W -> forall h1 h2 s1 s2 n1 n2 st1 st2 v1 v2 r1 r2,
    closed s1 = true -> closed s2 = true ->
    crs_new W (run W init h1) s1 n1 = Ok (st1, v1) -> crs_new W (run W init h2) s2 n2 = Ok (st2, v2) ->
    spec_srs W s1 = Some r1 -> spec_srs W s2 = Some r2 -> o_peq W r1 r2 = true ->
    crs_eq W v1 v2 = true /\ crs_eq W (to_epsg W v1) v2 = true /\ crs_eq W v1 (to_epsg W v2) = true /\
    crs_eq W (to_epsg W v1) (to_epsg W v2) = true.
Proof.
  intros W K h1 h2 s1 s2 n1 n2 st1 st2 v1 v2 r1 r2.
  exact (lossless_specs_equal W K _ _ s1 s2 n1 n2 st1 st2 v1 v2 r1 r2
           (run_good W K h1 _ (good_init W)) (run_good W K h2 _ (good_init W))).
Qed.
Print Assumptions C19_lossless_specs_equal.

(** CRS(c) and an unpickled copy of c are == c *)
Theorem C19_crs_copy_and_pickle_equal :
  forall W, contracts W -> forall h i v nid st1 v' s,
    get_var (run W init h) i = Ok v -> s = SpCrs i \/ s = SpPickle i ->
    crs_new W (run W init h) s nid = Ok (st1, v') ->
    crs_eq W v' v = true /\ crs_eq W v v' = true.
Proof.
  intros W K h i v nid st1 v' s. exact (copy_and_pickle_equal W K _ i v nid st1 v' s (run_good W K h _ (good_init W))).
Qed.
Print Assumptions C19_crs_copy_and_pickle_equal.

(** PARTIAL (same open finding): the unpickled copy has the same string form / hash / token when no aliasing
    key with another string form is cached *)
Theorem C19_crs_pickle_same_token_partial :
  forall W, contracts W -> forall h i v nid st1 v',
    get_var (run W init h) i = Ok v -> crs_new W (run W init h) (SpPickle i) nid = Ok (st1, v') ->
    coherent_for W (run W init h) (make_key W (MStr (c_str v))) (c_str v) ->
    c_str v' = c_str v.
Proof.
  intros W K h i v nid st1 v'. exact (pickle_str_partial W K (run W init h) i v nid st1 v' (run_good W K h _ (good_init W))).
Qed.
Print Assumptions C19_crs_pickle_same_token_partial.

(** the instances of a reachable state satisfy the CRS laws used in part (b): [==] on them is exactly
    pyproj equality of the objects they point to *)
Theorem C19_reachable_crs_in_domain :
  forall W, contracts W -> forall h v, In (Some v) (vars (run W init h)) -> Dcrs W (hfun (heap (run W init h))) v.
Proof. intros W K h v. exact (good_vars_in_D W K _ v (run_good W K h _ (good_init W))). Qed.
Print Assumptions C19_reachable_crs_in_domain.

Theorem C19_crs_eq_is_pyproj_eq :
  forall W, contracts W -> forall Hp a b, Dcrs W Hp a -> Dcrs W Hp b ->
    (crs_eq W a b = true <-> o_peq W (c_srs a) (c_srs b) = true).
Proof. exact Dcrs_iff. Qed.
Print Assumptions C19_crs_eq_is_pyproj_eq.

Theorem C19_crs_laws_from_contracts :
  forall W, contracts W -> forall Hp reload,
    (forall v, Dcrs W Hp v -> Dcrs W Hp (reload v) /\ c_str (reload v) = c_str v) ->
    crs_laws W (Dcrs W Hp) reload.
Proof. exact crs_laws_from_contracts. Qed.
Print Assumptions C19_crs_laws_from_contracts.

(** the unrepaired [CRS.__eq__] changed its answer when to_epsg() was called and was not transitive
    (repaired in the repo branch; kept as the reason for the repair) *)
Theorem C19_crs_eq_before_repair_refuted :
  exists W, contracts W /\ exists h a a0 b c,
    get_var (run W init h) 0 = Ok a0 /\ get_var (run W init (h ++ [OpToEpsg 0%nat])) 0 = Ok a /\
    get_var (run W init h) 1 = Ok b /\ get_var (run W init h) 2 = Ok c /\
    crs_eq_v0 W a0 b = false /\ crs_eq_v0 W a b = true /\
    crs_eq_v0 W c a = true /\ crs_eq_v0 W c b = false /\
    crs_eq W a0 b = false /\ crs_eq W a b = false.
Proof.
  exists toy. split; [exact toy_contracts|].
  exists [OpCRS (SpStr 5) 100; OpCRS (SpStr 1) 101; OpCRS (SpStr 6) 102],
    (mkCrs 100 5 5 (Some 4326)), (mkCrs 100 5 5 (Some 0)), (mkCrs 101 1 1 (Some 4326)), (mkCrs 102 6 6 (Some 0)).
  repeat apply conj; vm_compute; reflexivity.
Qed.
Print Assumptions C19_crs_eq_before_repair_refuted.

(** * (b) per type: == is an equivalence; equal tokens imply ==; unpickled clones are == with the same token *)

Theorem C19_crs_value_laws :
  forall W D reload, crs_laws W D reload ->
    (forall a, D a -> crs_eq W a a = true) /\
    (forall a b, D a -> D b -> crs_eq W a b = true -> crs_eq W b a = true) /\
    (forall a b c, D a -> D b -> D c -> crs_eq W a b = true -> crs_eq W b c = true -> crs_eq W a c = true) /\
    (forall a b, D a -> D b -> crs_token a = crs_token b -> crs_eq W a b = true) /\
    (forall a, D a -> D (reload a) /\ crs_eq W (reload a) a = true /\ crs_eq W a (reload a) = true /\
                      crs_token (reload a) = crs_token a).
Proof.
  intros W D reload L.
  split; [apply (cl_refl _ _ _ L)|]. split; [apply (cl_sym _ _ _ L)|]. split; [apply (cl_trans _ _ _ L)|].
  split; [apply (cl_tok _ _ _ L)|].
  intros a Da. pose proof (cl_reload_D _ _ _ L a Da) as Dr. pose proof (cl_reload_str _ _ _ L a Da) as S.
  repeat split; auto; apply (cl_tok _ _ _ L); auto.
Qed.
Print Assumptions C19_crs_value_laws.

(** FULL STATEMENT REFUTED (open finding crs-eq-hash:epsg-vs-wkt, F16): equal CRS instances in different
    spellings have different hash keys, and so have the GeoBoxes / BoundingBoxes built on them *)
Theorem C19_crs_eq_implies_hash_refuted :
  exists W, contracts W /\ exists h a b,
    get_var (run W init h) 0 = Ok a /\ get_var (run W init h) 1 = Ok b /\
    crs_eq W a b = true /\ crs_hashkey a <> crs_hashkey b /\
    (forall shape A, geobox_eqb W (mkGeoBox shape A (Some a)) (mkGeoBox shape A (Some b)) = true /\
                     geobox_hashkey (mkGeoBox shape A (Some a)) <> geobox_hashkey (mkGeoBox shape A (Some b))) /\
    (forall box, bbox_eqb W (mkBBox box (Some a)) (mkBBox box (Some b)) = true /\
                 bbox_hashkey (mkBBox box (Some a)) <> bbox_hashkey (mkBBox box (Some b))).
Proof.
  exists toy. split; [exact toy_contracts|].
  exists [OpCRS (SpStr 1) 100; OpCRS (SpStr 3) 101], (mkCrs 100 1 1 (Some 4326)), (mkCrs 101 3 3 (Some 0)).
  split; [vm_compute; reflexivity|]. split; [vm_compute; reflexivity|].
  split; [vm_compute; reflexivity|]. split; [vm_compute; discriminate|].
  apply eq_hash_differ; [vm_compute; reflexivity | vm_compute; discriminate].
Qed.
Print Assumptions C19_crs_eq_implies_hash_refuted.

(** PARTIAL: on instances spelled as a single EPSG code ([Depsg]: the string form is "EPSG:" followed by a
    non-zero code), == implies equal hash keys.  (Missing: instances whose string form is a WKT / PROJJSON /
    PROJ text or a compound "EPSG:h+v" definition.) *)
Theorem C19_crs_eq_implies_hash_partial :
  forall W, contracts W -> forall Hp a b, Depsg W Hp a -> Depsg W Hp b -> crs_eq W a b = true -> crs_hashkey a = crs_hashkey b.
Proof. exact hash_dom_epsg. Qed.
Print Assumptions C19_crs_eq_implies_hash_partial.

Theorem C19_bbox_laws :
  forall W D reload, crs_laws W D reload ->
    (forall a, bbox_ok D a -> bbox_eqb W a a = true) /\
    (forall a b, bbox_ok D a -> bbox_ok D b -> bbox_eqb W a b = true -> bbox_eqb W b a = true) /\
    (forall a b c, bbox_ok D a -> bbox_ok D b -> bbox_ok D c -> bbox_eqb W a b = true -> bbox_eqb W b c = true -> bbox_eqb W a c = true) /\
    (forall a b, bbox_ok D a -> bbox_ok D b -> bbox_token a = bbox_token b -> bbox_eqb W a b = true) /\
    (forall a, bbox_ok D a -> bbox_ok D (bbox_pickle reload a) /\ bbox_eqb W (bbox_pickle reload a) a = true /\
                            bbox_eqb W a (bbox_pickle reload a) = true /\ bbox_token (bbox_pickle reload a) = bbox_token a).
Proof.
  intros W D reload L.
  exact (typ_laws W D reload L _ _ _ _ (key_equiv bbox_key) (bbox_spec W) _ bbox_tinj (bbox_pickle reload)
           (fun _ => eq_refl) (bbox_pickle_token W D reload L)).
Qed.
Print Assumptions C19_bbox_laws.

(** PARTIAL (F16): for CRS components from a class [Dh] of instances on which == implies the same spelling *)
Theorem C19_bbox_eq_implies_hash_partial :
  forall W (Dh : crsv -> Prop) a b, hash_dom W Dh ->
    match bb_crs a with Some c => Dh c | None => True end -> match bb_crs b with Some c => Dh c | None => True end ->
    bbox_eqb W a b = true -> bbox_hashkey a = bbox_hashkey b.
Proof. intros W Dh a b. exact (typ_hash W _ _ _ _ (bbox_spec W) _ bbox_hfact Dh a b). Qed.
Print Assumptions C19_bbox_eq_implies_hash_partial.

Theorem C19_geometry_laws :
  forall W D reload, crs_laws W D reload ->
  forall (G : Type) (geq : G -> G -> bool) (gjson : G -> Z) (gload : Z -> G), geom_laws geq gjson gload ->
    (forall a, geom_ok D G a -> geom_eqb W G geq a a = true) /\
    (forall a b, geom_ok D G a -> geom_ok D G b -> geom_eqb W G geq a b = true -> geom_eqb W G geq b a = true) /\
    (forall a b c, geom_ok D G a -> geom_ok D G b -> geom_ok D G c ->
                   geom_eqb W G geq a b = true -> geom_eqb W G geq b c = true -> geom_eqb W G geq a c = true) /\
    (forall a b, geom_ok D G a -> geom_ok D G b -> geom_token G gjson a = geom_token G gjson b -> geom_eqb W G geq a b = true) /\
    (forall a, geom_ok D G a -> geom_ok D G (geom_pickle reload G gjson gload a) /\
                              geom_eqb W G geq (geom_pickle reload G gjson gload a) a = true /\
                              geom_eqb W G geq a (geom_pickle reload G gjson gload a) = true /\
                              geom_token G gjson (geom_pickle reload G gjson gload a) = geom_token G gjson a).
Proof.
  intros W D reload L G geq gjson gload GL.
  exact (typ_laws W D reload L _ _ _ _ (geom_R_equiv G geq gjson gload GL) (geom_spec W G geq) _
           (geom_tinj G geq gjson gload GL) (geom_pickle reload G gjson gload) (fun _ => eq_refl) (geom_pickle_token W D reload L G geq gjson gload GL)).
Qed.
Print Assumptions C19_geometry_laws.

Theorem C19_geobox_laws :
  forall W D reload, crs_laws W D reload ->
    (forall a, geobox_ok D a -> geobox_eqb W a a = true) /\
    (forall a b, geobox_ok D a -> geobox_ok D b -> geobox_eqb W a b = true -> geobox_eqb W b a = true) /\
    (forall a b c, geobox_ok D a -> geobox_ok D b -> geobox_ok D c -> geobox_eqb W a b = true -> geobox_eqb W b c = true -> geobox_eqb W a c = true) /\
    (forall a b, geobox_ok D a -> geobox_ok D b -> geobox_token a = geobox_token b -> geobox_eqb W a b = true) /\
    (forall a, geobox_ok D a -> geobox_ok D (geobox_pickle reload a) /\ geobox_eqb W (geobox_pickle reload a) a = true /\
                              geobox_eqb W a (geobox_pickle reload a) = true /\ geobox_token (geobox_pickle reload a) = geobox_token a).
Proof.
  intros W D reload L.
  exact (typ_laws W D reload L _ _ _ _ (key_equiv geobox_key) (geobox_spec W) _ geobox_tinj (geobox_pickle reload)
           (fun _ => eq_refl) (geobox_pickle_token W D reload L)).
Qed.
Print Assumptions C19_geobox_laws.

Theorem C19_geobox_eq_implies_hash_partial :
  forall W (Dh : crsv -> Prop) a b, hash_dom W Dh ->
    match gb_crs a with Some c => Dh c | None => True end -> match gb_crs b with Some c => Dh c | None => True end ->
    geobox_eqb W a b = true -> geobox_hashkey a = geobox_hashkey b.
Proof. intros W Dh a b. exact (typ_hash W _ _ _ _ (geobox_spec W) _ geobox_hfact Dh a b). Qed.
Print Assumptions C19_geobox_eq_implies_hash_partial.

(** GCPGeoBox after the repair (mapping compared by value) *)
Theorem C19_gcpgeobox_laws :
  forall W D reload, crs_laws W D reload ->
    (forall a, gcpbox_ok D a -> gcpbox_eqb W a a = true) /\
    (forall a b, gcpbox_ok D a -> gcpbox_ok D b -> gcpbox_eqb W a b = true -> gcpbox_eqb W b a = true) /\
    (forall a b c, gcpbox_ok D a -> gcpbox_ok D b -> gcpbox_ok D c -> gcpbox_eqb W a b = true -> gcpbox_eqb W b c = true -> gcpbox_eqb W a c = true) /\
    (forall a b, gcpbox_ok D a -> gcpbox_ok D b -> gcpbox_token a = gcpbox_token b -> gcpbox_eqb W a b = true) /\
    (forall a, gcpbox_ok D a -> gcpbox_ok D (gcpbox_pickle reload a) /\ gcpbox_eqb W (gcpbox_pickle reload a) a = true /\
                              gcpbox_eqb W a (gcpbox_pickle reload a) = true /\ gcpbox_token (gcpbox_pickle reload a) = gcpbox_token a).
Proof.
  intros W D reload L.
  exact (typ_laws W D reload L _ _ _ _ (key_equiv gcpbox_key) (gcpbox_spec W) _ gcpbox_tinj (gcpbox_pickle reload)
           (fun _ => eq_refl) (gcpbox_pickle_token W D reload L)).
Qed.
Print Assumptions C19_gcpgeobox_laws.

Theorem C19_gcpgeobox_eq_implies_hash_partial :
  forall W (Dh : crsv -> Prop) a b, hash_dom W Dh ->
    match gcpbox_crs a with Some c => Dh c | None => True end -> match gcpbox_crs b with Some c => Dh c | None => True end ->
    gcpbox_eqb W a b = true -> gcpbox_hashkey a = gcpbox_hashkey b.
Proof. intros W Dh a b. exact (typ_hash W _ _ _ _ (gcpbox_spec W) _ gcpbox_hfact Dh a b). Qed.
Print Assumptions C19_gcpgeobox_eq_implies_hash_partial.

(** with the mapping compared by identity (code before the repair) an unpickled clone was unequal while sharing the token *)
Theorem C19_gcpgeobox_identity_eq_refuted :
  exists (g : gcpbox) (mid mid' : Z), mid <> mid' /\ gcpbox_eqb_v0 mid mid' g g = false /\ gcpbox_token g = gcpbox_token g.
Proof.
  exists (mkGcpBox (10, 10) (1, 0, 0, 0, 1, 0)%Q (mkGcpMap None 0 [0%Q] 0 [1%Q])), 1, 2.
  split; [discriminate|]. split; reflexivity.
Qed.
Print Assumptions C19_gcpgeobox_identity_eq_refuted.

(** Tiles / VariableSizedTiles: == is structural equality and the token determines the value (pickling is the identity) *)
Theorem C19_tiles_laws :
  (forall a, tiles_eqb a a = true) /\ (forall a b, tiles_eqb a b = true -> tiles_eqb b a = true) /\
  (forall a b c, tiles_eqb a b = true -> tiles_eqb b c = true -> tiles_eqb a c = true) /\
  (forall a b, tiles_token a = tiles_token b -> tiles_eqb a b = true) /\
  (forall a b, tiles_eqb a b = true -> tiles_token a = tiles_token b).
Proof. exact (eq_laws tiles_eqb tiles_token tiles_eqb_spec tiles_token_inj). Qed.
Print Assumptions C19_tiles_laws.

Theorem C19_tiles_token_before_repair_refuted :
  exists a b, tiles_eqb a b = false /\ tiles_token_v0 a = tiles_token_v0 b.
Proof. exists (mkTiles (10, 10) (4, 4)), (mkTiles (11, 10) (4, 4)). split; reflexivity. Qed.
Print Assumptions C19_tiles_token_before_repair_refuted.

Theorem C19_vtiles_laws :
  (forall a, vtiles_eqb a a = true) /\ (forall a b, vtiles_eqb a b = true -> vtiles_eqb b a = true) /\
  (forall a b c, vtiles_eqb a b = true -> vtiles_eqb b c = true -> vtiles_eqb a c = true) /\
  (forall a b, vtiles_token a = vtiles_token b -> vtiles_eqb a b = true) /\
  (forall a b, vtiles_eqb a b = true -> vtiles_token a = vtiles_token b).
Proof. exact (eq_laws vtiles_eqb vtiles_token vtiles_eqb_spec vtiles_token_inj). Qed.
Print Assumptions C19_vtiles_laws.

Theorem C19_geoboxtiles_laws :
  forall W D reload, crs_laws W D reload ->
    (forall a, gbtiles_ok D a -> gbtiles_eqb W a a = true) /\
    (forall a b, gbtiles_ok D a -> gbtiles_ok D b -> gbtiles_eqb W a b = true -> gbtiles_eqb W b a = true) /\
    (forall a b c, gbtiles_ok D a -> gbtiles_ok D b -> gbtiles_ok D c -> gbtiles_eqb W a b = true -> gbtiles_eqb W b c = true -> gbtiles_eqb W a c = true) /\
    (forall a b, gbtiles_ok D a -> gbtiles_ok D b -> gbtiles_token a = gbtiles_token b -> gbtiles_eqb W a b = true) /\
    (forall a, gbtiles_ok D a -> gbtiles_ok D (gbtiles_pickle reload a) /\ gbtiles_eqb W (gbtiles_pickle reload a) a = true /\
                               gbtiles_eqb W a (gbtiles_pickle reload a) = true /\ gbtiles_token (gbtiles_pickle reload a) = gbtiles_token a).
Proof.
  intros W D reload L.
  exact (typ_laws W D reload L _ _ _ _ (key_equiv gbtiles_key) (gbtiles_spec W) _ gbtiles_tinj (gbtiles_pickle reload)
           (gbtiles_pickle_crs reload) (gbtiles_pickle_token W D reload L)).
Qed.
Print Assumptions C19_geoboxtiles_laws.

(** XY family: == and hash ignore the class and the number type; equal tokens imply == *)
Theorem C19_xy_laws :
  (forall a, xy_eqb a a = true) /\ (forall a b, xy_eqb a b = true -> xy_eqb b a = true) /\
  (forall a b c, xy_eqb a b = true -> xy_eqb b c = true -> xy_eqb a c = true) /\
  (forall a b, xy_eqb a b = true -> xy_hashkey a = xy_hashkey b) /\
  (forall a b, xy_token a = xy_token b -> xy_eqb a b = true).
Proof. exact xy_laws. Qed.
Print Assumptions C19_xy_laws.

Theorem C19_gridspec_laws :
  forall W D reload, crs_laws W D reload ->
    (forall a, gridspec_ok D a -> gridspec_eqb W a a = true) /\
    (forall a b, gridspec_ok D a -> gridspec_ok D b -> gridspec_eqb W a b = true -> gridspec_eqb W b a = true) /\
    (forall a b c, gridspec_ok D a -> gridspec_ok D b -> gridspec_ok D c -> gridspec_eqb W a b = true -> gridspec_eqb W b c = true -> gridspec_eqb W a c = true) /\
    (forall a b, gridspec_ok D a -> gridspec_ok D b -> gridspec_token a = gridspec_token b -> gridspec_eqb W a b = true) /\
    (forall a, gridspec_ok D a -> gridspec_ok D (gridspec_pickle reload a) /\ gridspec_eqb W (gridspec_pickle reload a) a = true /\
                                gridspec_eqb W a (gridspec_pickle reload a) = true /\ gridspec_token (gridspec_pickle reload a) = gridspec_token a).
Proof.
  intros W D reload L.
  exact (typ_laws W D reload L _ _ _ _ (key_equiv gridspec_key) (gridspec_spec W) _ gridspec_tinj (gridspec_pickle reload)
           (fun _ => eq_refl) (gridspec_pickle_token W D reload L)).
Qed.
Print Assumptions C19_gridspec_laws.

(** * non-vacuity *)
Example C19_contracts_satisfiable : contracts toy.
Proof. exact toy_contracts. Qed.

Example C19_reachable_state_with_cached_transformer :
  tcache (run toy init demo_history) = [((100, 101, true), (1, 3, true))] /\
  map fst (heap (run toy init demo_history)) = [102; 101; 100].
Proof. split; vm_compute; reflexivity. Qed.

Example C19_crs_laws_satisfiable : exists Hp reload v, Dcrs toy Hp v /\ crs_laws toy (Dcrs toy Hp) reload.
Proof.
  exists (fun i => if i =? 100 then Some 1 else None), (fun v => v), (mkCrs 100 1 1 (Some 4326)).
  split.
  - split; [split|split]; try reflexivity. right; reflexivity.
  - apply (crs_laws_from_contracts toy toy_contracts). intros v Dv; auto.
Qed.
