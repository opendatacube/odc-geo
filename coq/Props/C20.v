(** Property C20 — numeric helpers of odc/geo/math.py meet their documented
    contracts.  Each statement follows in a few lines from the lemmas of Proofs/
    and is followed by [Print Assumptions].  Floats are exact rationals [Q] (binary64
    rounding is not modelled), Python ints are [Z]; [Err] results are Python
    exceptions.  All statements quantify over ALL rationals / integers. *)
From Coq Require Import ZArith QArith Qabs List Bool Lqa.
From OG Require Import Base.Result Model.Roi Model.MathH Model.MathHCases (* cases: only so that the check's build closure keeps them fresh *)
  Proofs.RoiProofs Proofs.MathHBasics Proofs.MathHSnap Proofs.MathHScale Proofs.MathHMisc Proofs.MathHLinear.
Import ListNotations.
Open Scope Q_scope.

(** ** split_float: whole + fraction = x, fraction in [-1/2, 1/2], whole is an integer *)
Theorem C20_split_float :
  forall x : Q,
    let '(w, p) := split_float x in
    w + p == x /\ -(1#2) <= p /\ p <= 1#2 /\ exists z : Z, w == inject_Z z.
Proof. exact split_float_spec. Qed.
Print Assumptions C20_split_float.

(** the whole part is a nearest integer (the docstring's "equivalent to round(x)") *)
Theorem C20_split_float_nearest :
  forall (x : Q) (k : Z), Qabs (snd (split_float x)) <= Qabs (x - inject_Z k).
Proof. exact split_float_nearest. Qed.
Print Assumptions C20_split_float_nearest.

(** ** near-integer test and conversion agree with each other and with the tolerance *)
Theorem C20_is_almost_int_iff_maybe_int_snaps :
  forall x tol : Q, is_almost_int x tol = true <-> exists n : Z, maybe_int_z x tol = Some n.
Proof. exact is_almost_int_maybe_int. Qed.
Print Assumptions C20_is_almost_int_iff_maybe_int_snaps.

Theorem C20_is_almost_int_iff_within_tol :
  forall x tol : Q, is_almost_int x tol = true <-> exists k : Z, Qabs (x - inject_Z k) < tol.
Proof. exact is_almost_int_within. Qed.
Print Assumptions C20_is_almost_int_iff_within_tol.

(** maybe_int either returns the nearest integer, strictly within [tol], or passes [x]
    through — and then no integer at all is strictly within [tol] *)
Theorem C20_maybe_int :
  forall x tol : Q,
    (exists n : Z, maybe_int_z x tol = Some n /\ maybe_int x tol = inject_Z n /\
                   Qabs (x - inject_Z n) < tol /\ -(1#2) <= x - inject_Z n /\ x - inject_Z n <= 1#2) \/
    (maybe_int_z x tol = None /\ maybe_int x tol = x /\ forall k : Z, tol <= Qabs (x - inject_Z k)).
Proof. exact maybe_int_cases. Qed.
Print Assumptions C20_maybe_int.

Theorem C20_maybe_zero :
  forall x tol : Q,
    (Qabs x < tol /\ maybe_zero x tol = 0) \/ (tol <= Qabs x /\ maybe_zero x tol = x).
Proof. intros x tol. unfold maybe_zero. destruct (Qltb_spec (Qabs x) tol); [left | right]; auto. Qed.
Print Assumptions C20_maybe_zero.

(** ** snap_scale: result is [s] itself, an integer within [tol] of [s], or [1/n] with
    [n] within [tol] of [1/s]; never fails for a positive tolerance; idempotent *)
Theorem C20_snap_scale :
  forall s tol : Q, 0 < tol ->
    exists r, snap_scale s tol = Ok r /\
      (r = s \/
       (exists n : Z, r = inject_Z n /\ Qabs (s - inject_Z n) < tol) \/
       (exists n : Z, n <> 0%Z /\ r = 1 / inject_Z n /\ ~ s == 0 /\ Qabs (1 / s - inject_Z n) < tol)).
Proof.
  intros s tol Ht. destruct (snap_scale_spec s tol Ht) as (r & E & R). exists r. split; [exact E|].
  destruct R as [H | n H1 H2 H3 | n H1 H2 H3 H4 H5]; [left; exact H | right; left; eauto | right; right; eauto].
Qed.
Print Assumptions C20_snap_scale.

(** ... and a scale that IS within tolerance of a snap target gets snapped *)
Theorem C20_snap_scale_complete :
  forall s tol : Q, 0 < tol ->
    (1 - tol <= Qabs s -> forall k : Z, Qabs (s - inject_Z k) < tol ->
       exists n : Z, snap_scale s tol = Ok (inject_Z n) /\ Qabs (s - inject_Z n) < tol) /\
    (Qabs s < 1 - tol -> tol <= Qabs s -> forall k : Z, Qabs (1 / s - inject_Z k) < tol ->
       exists n : Z, n <> 0%Z /\ snap_scale s tol = Ok (1 / inject_Z n) /\ Qabs (1 / s - inject_Z n) < tol).
Proof. exact snap_scale_complete. Qed.
Print Assumptions C20_snap_scale_complete.

Theorem C20_snap_scale_idempotent :
  forall s tol r : Q, 0 < tol -> tol < 1#2 ->
    snap_scale s tol = Ok r -> exists r', snap_scale r tol = Ok r' /\ r' == r.
Proof. exact snap_scale_idempotent. Qed.
Print Assumptions C20_snap_scale_idempotent.

(** ** integer alignment *)
Theorem C20_align_down :
  forall x a : Z, (0 < a)%Z ->
    (align_down x a mod a = 0 /\ align_down x a <= x /\ x - align_down x a < a)%Z.
Proof. exact align_down_spec. Qed.
Print Assumptions C20_align_down.

Theorem C20_align_up :
  forall x a : Z, (0 < a)%Z ->
    (align_up x a mod a = 0 /\ x <= align_up x a /\ align_up x a - x < a)%Z.
Proof. exact align_up_spec. Qed.
Print Assumptions C20_align_up.

(** smallest power of two >= x  (and 1 = 2^0 for x <= 0) *)
Theorem C20_align_up_pow2 :
  forall x : Z,
    ((x <= 0 -> align_up_pow2 x = 1) /\
     (1 <= x -> exists k, 0 <= k /\ align_up_pow2 x = 2 ^ k /\ x <= 2 ^ k /\
                          forall j, 0 <= j -> x <= 2 ^ j -> 2 ^ k <= 2 ^ j))%Z.
Proof.
  intros x. split; [apply align_up_pow2_nonpos|].
  intros H. destruct (align_up_pow2_spec x H) as (k & A & B & C & _ & D). exists k. auto.
Qed.
Print Assumptions C20_align_up_pow2.

(** largest power of two <= x *)
Theorem C20_align_down_pow2 :
  forall x : Z, (1 <= x)%Z ->
    (exists k, 0 <= k /\ align_down_pow2 x = 2 ^ k /\ 2 ^ k <= x /\
               forall j, 0 <= j -> 2 ^ j <= x -> 2 ^ j <= 2 ^ k)%Z.
Proof.
  intros x H. destruct (align_down_pow2_spec x H) as (k & A & B & C & _ & D). exists k. auto.
Qed.
Print Assumptions C20_align_down_pow2.

Theorem C20_clamp :
  forall x lo up : Q,
    (lo <= up ->
     exists r, clamp x lo up = Ok r /\ lo <= r /\ r <= up /\
               (lo <= x -> x <= up -> r = x) /\ (x < lo -> r = lo) /\ (up < x -> r = up)) /\
    (up < lo -> clamp x lo up = Err (EAssert 152)).
Proof. intros; split; [apply clamp_spec | apply clamp_err]. Qed.
Print Assumptions C20_clamp.

(** ** one-axis grid snapping.  [tx, nx] describe the pixels
    [tx + i*rs, tx + (i+1)*rs), i = 0..nx-1.

    Positive resolution, snapping to pixel fraction [o]: at least one pixel;
    the origin sits at (integer + o) pixels from 0; the span covers [x0, x1]
    up to [tol] pixel on each side; it starts less than one pixel before [x0]
    and ends at most (1 + tol) pixel after [x1] (strictly less when x0 < x1;
    less than one pixel when the interval is at least one pixel long and
    tol < 1). *)
Theorem C20_snap_grid_snapped_pos :
  forall x0 x1 rs o tol : Q, 0 < rs -> x0 <= x1 -> 0 <= o -> o < 1 -> 0 <= tol ->
    exists tx nx k,
      snap_grid x0 x1 rs (Some o) tol = Ok (tx, nx) /\
      (1 <= nx)%Z /\
      tx == (inject_Z k + o) * rs /\
      tx <= x0 + tol * rs /\ x0 - tx < rs /\
      x1 - tol * rs <= tx + inject_Z nx * rs /\
      tx + inject_Z nx * rs - x1 <= (1 + tol) * rs /\
      (x0 < x1 -> tx + inject_Z nx * rs - x1 < (1 + tol) * rs) /\
      (rs <= x1 - x0 -> tol < 1 -> tx + inject_Z nx * rs - x1 < rs).
Proof.
  intros x0 x1 rs o tol Hr Hx H0 H1 Ht.
  destruct (snap_grid_some_spec x0 x1 rs o tol) as (tx & nx & k & E & A & F);
    [lra | assumption | split; assumption | assumption |].
  rewrite (proj2 (Qltb_true 0 rs) Hr) in F. rewrite (Qabs_pos rs) in A, F by lra.
  exists tx, nx, k. exact (conj E (conj (proj1 F) (conj A (fits_snug _ _ _ _ _ _ _ F Hx Ht)))).
Qed.
Print Assumptions C20_snap_grid_snapped_pos.

(** negative resolution: [tx] is the upper edge and the pixels run downwards to
    [tx + nx*rs]; same guarantees with the roles of the two ends exchanged *)
Theorem C20_snap_grid_snapped_neg :
  forall x0 x1 rs o tol : Q, rs < 0 -> x0 <= x1 -> 0 <= o -> o < 1 -> 0 <= tol ->
    exists tx nx k,
      snap_grid x0 x1 rs (Some o) tol = Ok (tx, nx) /\
      (1 <= nx)%Z /\
      tx == (inject_Z k + o) * (- rs) /\
      tx + inject_Z nx * rs <= x0 + tol * (- rs) /\ x0 - (tx + inject_Z nx * rs) < - rs /\
      x1 - tol * (- rs) <= tx /\
      tx - x1 <= (1 + tol) * (- rs) /\
      (x0 < x1 -> tx - x1 < (1 + tol) * (- rs)) /\
      (- rs <= x1 - x0 -> tol < 1 -> tx - x1 < - rs).
Proof.
  intros x0 x1 rs o tol Hr Hx H0 H1 Ht.
  destruct (snap_grid_some_spec x0 x1 rs o tol) as (tx & nx & k & E & A & F);
    [lra | assumption | split; assumption | assumption |].
  rewrite (proj2 (Qltb_false 0 rs)) in F by lra. rewrite (Qabs_neg rs) in A, F by lra.
  exists tx, nx, k. exact (conj E (conj (proj1 F) (conj A (fits_snug _ _ _ _ _ _ _ F Hx Ht)))).
Qed.
Print Assumptions C20_snap_grid_snapped_neg.

(** [off_pix = None]: the grid starts exactly at x0 (at x1 for a negative resolution) *)
Theorem C20_snap_grid_floating_pos :
  forall x0 x1 rs tol : Q, 0 < rs -> x0 <= x1 -> 0 <= tol ->
    exists nx,
      snap_grid x0 x1 rs None tol = Ok (x0, nx) /\
      (1 <= nx)%Z /\
      x1 - tol * rs <= x0 + inject_Z nx * rs /\
      x0 + inject_Z nx * rs - x1 <= rs /\
      (x0 < x1 -> x0 + inject_Z nx * rs - x1 < rs).
Proof.
  intros x0 x1 rs tol Hr Hx Ht.
  destruct (snap_grid_none_spec x0 x1 rs tol) as (nx & E & N & S); [lra | assumption..|].
  rewrite (proj2 (Qltb_true 0 rs) Hr) in E. rewrite (Qabs_pos rs) in S by lra.
  exists nx. split; [exact E|]. split; [exact N|]. lra.
Qed.
Print Assumptions C20_snap_grid_floating_pos.

Theorem C20_snap_grid_floating_neg :
  forall x0 x1 rs tol : Q, rs < 0 -> x0 <= x1 -> 0 <= tol ->
    exists nx,
      snap_grid x0 x1 rs None tol = Ok (x1, nx) /\
      (1 <= nx)%Z /\
      x1 + inject_Z nx * rs <= x0 + tol * (- rs) /\
      x0 - (x1 + inject_Z nx * rs) <= - rs /\
      (x0 < x1 -> x0 - (x1 + inject_Z nx * rs) < - rs).
Proof.
  intros x0 x1 rs tol Hr Hx Ht.
  destruct (snap_grid_none_spec x0 x1 rs tol) as (nx & E & N & S); [lra | assumption..|].
  rewrite (proj2 (Qltb_false 0 rs)) in E by lra. rewrite (Qabs_neg rs) in S by lra.
  exists nx. split; [exact E|]. split; [exact N|]. lra.
Qed.
Print Assumptions C20_snap_grid_floating_neg.

(** minimal pixel count (0 <= tol <= 1/2): a snapped grid cannot start one pixel
    later nor (when it has at least two pixels) end one pixel earlier and still
    cover [x0, x1] up to [tol] pixel; a floating grid with at least two pixels
    cannot drop its last pixel.  [lo] is the low edge for either sign of [rs]. *)
Theorem C20_snap_grid_snapped_minimal :
  forall x0 x1 rs o tol tx nx, ~ rs == 0 -> 0 <= tol -> tol <= 1#2 ->
    snap_grid x0 x1 rs (Some o) tol = Ok (tx, nx) ->
    let a := Qabs rs in
    let lo := if Qltb 0 rs then tx else tx + inject_Z nx * rs in
    x0 + tol * a <= lo + a /\ ((2 <= nx)%Z -> lo + inject_Z nx * a - a <= x1 - tol * a).
Proof. exact snap_grid_some_min. Qed.
Print Assumptions C20_snap_grid_snapped_minimal.

Theorem C20_snap_grid_floating_minimal :
  forall x0 x1 rs tol tx nx, ~ rs == 0 -> 0 <= tol -> tol <= 1#2 ->
    snap_grid x0 x1 rs None tol = Ok (tx, nx) ->
    (2 <= nx)%Z -> (inject_Z nx - 1) * Qabs rs <= x1 - x0 - tol * Qabs rs.
Proof. exact snap_grid_none_min. Qed.
Print Assumptions C20_snap_grid_floating_minimal.

(** inputs outside the contract raise instead of returning a wrong grid *)
Theorem C20_snap_grid_errors :
  forall x0 x1 rs tol : Q,
    (forall o, rs == 0 -> exists e, snap_grid x0 x1 rs o tol = Err e) /\
    (forall o, ~ (0 <= o /\ o < 1) -> snap_grid x0 x1 rs (Some o) tol = Err (EAssert 207)) /\
    (forall o, x1 < x0 -> 0 <= o /\ o < 1 -> snap_grid x0 x1 rs (Some o) tol = Err (EAssert 182)).
Proof.
  intros. split; [|split]; intros.
  - apply snap_grid_err_zero; assumption.
  - apply snap_grid_err_off; assumption.
  - apply snap_grid_err_order; assumption.
Qed.
Print Assumptions C20_snap_grid_errors.

(** ** snap_affine: identity on rotated / sheared input *)
Theorem C20_snap_affine_rotated_untouched :
  forall (A : aff) (ttol stol tol : Q),
    tol < Qabs (ab A) \/ tol < Qabs (ad A) -> snap_affine A ttol stol tol = Ok A.
Proof. intros A ttol stol tol H. unfold snap_affine. apply rotated_bool in H. rewrite H. reflexivity. Qed.
Print Assumptions C20_snap_affine_rotated_untouched.

(** otherwise every coefficient moves only within its own tolerance *)
Theorem C20_snap_affine_within_tolerances :
  forall (A : aff) (ttol stol tol : Q),
    ~ (tol < Qabs (ab A) \/ tol < Qabs (ad A)) -> 0 < stol -> 0 < ttol ->
    exists B, snap_affine A ttol stol tol = Ok B /\
      ab B = 0 /\ ad B = 0 /\ Qabs (ab A) <= tol /\ Qabs (ad A) <= tol /\
      snap_scale (aa A) stol = Ok (aa B) /\ snap_scale (ae A) stol = Ok (ae B) /\
      Qabs (ac B - ac A) < ttol /\ Qabs (af B - af A) < ttol /\
      ((exists n : Z, ac B = inject_Z n) \/ ac B = ac A) /\
      ((exists n : Z, af B = inject_Z n) \/ af B = af A).
Proof.
  intros A ttol stol tol Hn Hs Ht.
  destruct (snap_affine_not_rotated A ttol stol tol Hn Hs) as (sx & sy & E & Ex & Ey & W1 & W2).
  eexists. split; [exact E|]. simpl.
  repeat split; try assumption; try (apply maybe_int_close; assumption); apply maybe_int_integer_or_same.
Qed.
Print Assumptions C20_snap_affine_within_tolerances.

Theorem C20_snap_affine_idempotent :
  forall (A : aff) (ttol stol tol : Q) (B : aff),
    0 < ttol -> 0 < stol -> stol < 1#2 ->
    snap_affine A ttol stol tol = Ok B ->
    exists B', snap_affine B ttol stol tol = Ok B' /\ aff_eq B' B.
Proof. exact snap_affine_idempotent. Qed.
Print Assumptions C20_snap_affine_idempotent.

Theorem C20_is_affine_st :
  forall (A : aff) (tol : Q),
    (is_affine_st A tol = true <-> Qabs (ab A) < tol /\ Qabs (ad A) < tol) /\
    (is_affine_st A tol = true -> ~ (tol < Qabs (ab A) \/ tol < Qabs (ad A))).
Proof. intros; split; [apply is_affine_st_iff | apply is_affine_st_not_rotated]. Qed.
Print Assumptions C20_is_affine_st.

(** ** the affine recovered from regularly spaced axis labels reproduces them:
    pixel centre (i + 1/2, j + 1/2) maps to (xx[i], yy[j]) *)
Theorem C20_affine_from_axis :
  forall (xx yy : list Q) (fb : option some_res) (cx rx cy ry : Q),
    regular xx cx rx -> regular yy cy ry ->
    axis_ok xx (option_map (fun f => fst (res_xy f)) fb) rx ->
    axis_ok yy (option_map (fun f => snd (res_xy f)) fb) ry ->
    exists A, affine_from_axis xx yy fb = Ok A /\
              aff_eq A (mkAff rx 0 (cx - (1#2) * rx) 0 ry (cy - (1#2) * ry)) /\
              forall i j, (i < length xx)%nat -> (j < length yy)%nat ->
                fst (aff_apply A (inject_Z (Z.of_nat i) + (1#2), inject_Z (Z.of_nat j) + (1#2))) == nth i xx 0 /\
                snd (aff_apply A (inject_Z (Z.of_nat i) + (1#2), inject_Z (Z.of_nat j) + (1#2))) == nth j yy 0.
Proof. exact affine_from_axis_spec. Qed.
Print Assumptions C20_affine_from_axis.

Theorem C20_data_resolution_errors :
  forall fb v, data_resolution_and_offset [] fb = Err EValue /\
               data_resolution_and_offset [v] None = Err EValue.
Proof. intros; split; reflexivity. Qed.
Print Assumptions C20_data_resolution_errors.

(** ** Bin1D: every point lies in exactly the bin whose interval contains it *)
Theorem C20_bin1d_bin_iff_interval :
  forall (b : bin1d) (x : Q) (i : Z), 0 < bsz b -> (bdir b = 1 \/ bdir b = -1)%Z ->
    (bin1d_bin b x = i <-> fst (bin1d_getitem b i) <= x /\ x < snd (bin1d_getitem b i)).
Proof. intros b x i H1 H2. apply bin1d_bin_iff. split; assumption. Qed.
Print Assumptions C20_bin1d_bin_iff_interval.

(** consecutive bins share an end point and every bin is [sz] wide *)
Theorem C20_bin1d_intervals_tile :
  forall (b : bin1d) (i : Z), 0 < bsz b -> (bdir b = 1 \/ bdir b = -1)%Z ->
    snd (bin1d_getitem b i) == fst (bin1d_getitem b (i + bdir b)) /\
    snd (bin1d_getitem b i) - fst (bin1d_getitem b i) == bsz b.
Proof. intros b i H1 H2. split; [apply bin1d_adjacent; split; assumption | apply bin1d_width]. Qed.
Print Assumptions C20_bin1d_intervals_tile.

(** reconstruction from a sample bin *)
Theorem C20_bin1d_from_sample_bin :
  forall (idx : Z) (x0 x1 : Q) (dir : Z), x0 < x1 -> (dir = 1 \/ dir = -1)%Z ->
    exists b, bin1d_from_sample_bin idx (x0, x1) dir = Ok b /\
              0 < bsz b /\ bdir b = dir /\ bsz b == x1 - x0 /\
              fst (bin1d_getitem b idx) == x0 /\ snd (bin1d_getitem b idx) == x1 /\
              (forall x, bin1d_bin b x = idx <-> x0 <= x /\ x < x1).
Proof.
  intros idx x0 x1 dir Hx Hd.
  destruct (bin1d_from_sample_bin_spec idx x0 x1 dir Hx Hd) as (b & E & [Hs _] & R). exists b. tauto.
Qed.
Print Assumptions C20_bin1d_from_sample_bin.

Theorem C20_bin1d_from_sample_bin_roundtrip :
  forall (b : bin1d) (i : Z), 0 < bsz b -> (bdir b = 1 \/ bdir b = -1)%Z ->
    exists b', bin1d_from_sample_bin i (bin1d_getitem b i) (bdir b) = Ok b' /\
               bsz b' == bsz b /\ borigin b' == borigin b /\ bdir b' = bdir b.
Proof. intros b i H1 H2. apply bin1d_from_sample_bin_roundtrip. split; assumption. Qed.
Print Assumptions C20_bin1d_from_sample_bin_roundtrip.

Theorem C20_bin1d_constructor_checks :
  forall sz origin dir b, bin1d_new sz origin dir = Ok b ->
    b = mkBin sz origin dir /\ 0 < sz /\ (dir = 1 \/ dir = -1)%Z.
Proof.
  intros sz origin dir b H. destruct (bin1d_new_inv _ _ _ _ H) as (-> & Hs & Hd). auto.
Qed.
Print Assumptions C20_bin1d_constructor_checks.

(** ** rotation / shear / scale decomposition.  [l11], [l22] are the two square
    roots numpy's Cholesky factorisation takes (universally quantified positive
    roots of their defining equations: covers every real-closed instance). *)
Theorem C20_decompose_rws :
  forall (A : mat2) (l11 l22 : Q),
    0 < l11 -> l11 * l11 == m00 (m2mul (m2T A) A) ->
    0 < l22 -> l22 * l22 == m11 (m2mul (m2T A) A) - (m01 (m2mul (m2T A) A) / l11) * (m01 (m2mul (m2T A) A) / l11) ->
    let '(R, W, Sm) := decompose_rws_with l11 l22 A in
    m2eq (m2mul R (m2mul W Sm)) A /\
    m2eq (m2mul (m2T R) R) m2I /\ m2det R == 1 /\
    m00 W == 1 /\ m10 W == 0 /\ m11 W == 1 /\
    m01 Sm == 0 /\ m10 Sm == 0.
Proof. exact decompose_rws_with_spec. Qed.
Print Assumptions C20_decompose_rws.

(** the executable version (exact rational roots) is an instance of the above *)
Theorem C20_decompose_rws_exec :
  forall (A : mat2) R W Sm, decompose_rws A = Ok (R, W, Sm) ->
    m2eq (m2mul R (m2mul W Sm)) A /\
    m2eq (m2mul (m2T R) R) m2I /\ m2det R == 1 /\
    m00 W == 1 /\ m10 W == 0 /\ m11 W == 1 /\ m01 Sm == 0 /\ m10 Sm == 0.
Proof. exact decompose_rws_exec_spec. Qed.
Print Assumptions C20_decompose_rws_exec.

(** resolution_from_affine: the diagonal for scale+translation transforms, the
    scale part of the decomposition otherwise *)
Theorem C20_resolution_from_affine :
  forall (A : aff) (tol : Q),
    (is_affine_st A tol = true -> resolution_from_affine A tol = Ok (aa A, ae A)) /\
    (forall rx ry, is_affine_st A tol = false -> resolution_from_affine A tol = Ok (rx, ry) ->
       exists R W Sm, decompose_rws (mkM (aa A) (ab A) (ad A) (ae A)) = Ok (R, W, Sm) /\ rx = m00 Sm /\ ry = m11 Sm).
Proof. intros; split; [apply resolution_from_affine_st | intros; eapply resolution_from_affine_rotated; eauto]. Qed.
Print Assumptions C20_resolution_from_affine.

(** ** affine fit: the exact least-squares (normal equation) solution reproduces
    any affine map from points whose normal matrix is invertible *)
Theorem C20_affine_from_pts :
  forall (A : aff) (X : list (Q * Q)) (B : aff),
    affine_from_pts X (map (aff_apply A) X) = Ok B -> aff_eq B A.
Proof. exact affine_from_pts_exact. Qed.
Print Assumptions C20_affine_from_pts.

Theorem C20_affine_from_pts_total :
  forall (A : aff) (X : list (Q * Q)),
    (3 <= length X)%nat -> ~ normal_det X == 0 ->
    exists B, affine_from_pts X (map (aff_apply A) X) = Ok B.
Proof. exact affine_from_pts_total. Qed.
Print Assumptions C20_affine_from_pts_total.

(** ** Non-vacuity: concrete instances (evaluated, not assumed). *)
Example C20_ex_split : let '(w, p) := split_float (-(7#4)) in w == -(2#1) /\ p == 1#4.
Proof. vm_compute. split; reflexivity. Qed.
Example C20_ex_snap_grid_neg :
  exists tx, snap_grid (5#2) (47#4) (-(2#1)) (Some (1#2)) (1#100) = Ok (tx, 6%Z) /\ tx == 13#1.
Proof. eexists. split; [vm_compute; reflexivity | reflexivity]. Qed.
Example C20_ex_snap_grid_floating_neg_near_int :
  snap_grid 10 (40 + (1#1000000000)) (-(10)) None (1#100) = Ok (40 + (1#1000000000), 3%Z).
Proof. vm_compute. reflexivity. Qed.
Example C20_ex_pow2 : align_up_pow2 (2 ^ 49 + 1) = (2 ^ 50)%Z /\ align_down_pow2 (2 ^ 49 + 1) = (2 ^ 49)%Z.
Proof. split; vm_compute; reflexivity. Qed.
Example C20_ex_snap_scale : exists r, snap_scale (1#4) (1#1000000) = Ok r /\ r == 1#4.
Proof. eexists. split; [vm_compute; reflexivity | reflexivity]. Qed.
Example C20_ex_rws :
  exists R W Sm, decompose_rws (mkM 0 4 2 1) = Ok (R, W, Sm) /\ m2eq R (mkM 0 (-(1)) 1 0) /\
                m2eq W (mkM 1 (-(1#4)) 0 1) /\ m2eq Sm (mkM 2 0 0 (-(4))).
Proof. do 3 eexists. split; [vm_compute; reflexivity|]. repeat split; reflexivity. Qed.
Example C20_ex_from_pts :
  exists B, affine_from_pts [(0, 0); (1, 0); (0, 1); (2#1, 3#1)]
                            (map (aff_apply (mkAff 2 (1#2) 10 0 (-(3)) 5)) [(0, 0); (1, 0); (0, 1); (2#1, 3#1)]) = Ok B /\
            aff_eq B (mkAff 2 (1#2) 10 0 (-(3)) 5).
Proof. eexists. split; [vm_compute; reflexivity|]. repeat split; reflexivity. Qed.

(** Tie to the source: the definitions regenerated by tools/py2v from the current odc/geo/math.py (coq/Gen/MathGen.v, rewritten on every run) are the model (Model/MathH.v) the theorems above are stated on, up to the error kind. *)
From OG Require Proofs.MathGenEquivH.
Theorem C20_source_is_model : OG.Proofs.MathGenEquivH.math_source_is_model.
Proof. exact OG.Proofs.MathGenEquivH.math_source_is_model_holds. Qed.
Print Assumptions C20_source_is_model.
