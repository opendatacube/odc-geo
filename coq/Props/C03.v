(** Property C03 — reprojection planning never drops a needed pixel.
    The lemmas are in Proofs/OverlapProofs.v and Proofs/OverlapOrdered.v.

    Conventions (those of the code): [A] maps destination pixel coordinates to
    source pixel coordinates (X_src = A * X_dst), pixel [d] covers [d, d+1) and
    has its centre at [d + 1/2]; a source location [x] belongs to source pixel
    [floor x]; slices / regions are half open (start, stop) pairs, a region is
    ((y0,y1),(x0,x1)).  All numbers are exact rationals (see the note of the
    check for the binary64 abstraction). *)
From Coq Require Import ZArith QArith Qround Qabs List Bool Lia Lqa.
From OG Require Import Base.Result Base.QZ Model.Roi Model.Overlap
     Proofs.RoiPointsProofs Proofs.OverlapProofs Proofs.OverlapOrdered.
Import ListNotations.
Open Scope Q_scope.

(** one axis: compute_axis_overlap, every non-zero scale (mirrored, fractional) and shift *)
Theorem C03_axis_overlap :
  forall (Ns Nd : Z) (s t : Q), (0 <= Ns)%Z -> (0 <= Nd)%Z -> ~ s == 0 ->
  exists src dst, axis_overlap Ns Nd s t = Ok (src, dst) /\
    (* both slices are well formed and lie inside their images *)
    sl_within src Ns /\ sl_within dst Nd /\
    (* every destination pixel whose centre maps inside the source is covered, and so is its source pixel *)
    (forall d, (0 <= d < Nd)%Z ->
       let x := s * (inject_Z d + (1#2)) + t in
       0 <= x -> x < inject_Z Ns -> in_sl dst d /\ in_sl src (Qfloor x)) /\
    (* images that do not overlap (touching included) give two empty slices *)
    ((t <= 0 /\ inject_Z Nd * s + t <= 0) \/ (inject_Z Ns <= t /\ inject_Z Ns <= inject_Z Nd * s + t) ->
       sl_empty src /\ sl_empty dst).
Proof. exact axis_overlap_spec. Qed.
Print Assumptions C03_axis_overlap.

Theorem C03_axis_zero_scale_rejected :
  forall Ns Nd s t, s == 0 -> axis_overlap Ns Nd s t = Err (EAssert 259).
Proof.
  intros Ns Nd s t H. unfold axis_overlap.
  destruct (Qltb_spec s 0); [lra|]. destruct (Qltb_spec 0 s); [lra|]. reflexivity.
Qed.
Print Assumptions C03_axis_zero_scale_rejected.

(** same CRS, sampled path (rotation, shear, fractional scale, padding/align requested), any
    invertible affine: a destination pixel whose centre maps inside the source image is in the
    destination region, and the source pixel it maps to is in the source region *)
Theorem C03_same_crs_sampled_inclusion :
  forall c ss ds A F ttol stol padding align r,
  reproject_linear c ss ds A F ttol stol padding align = Ok r ->
  paste_ok r = false ->
  (0 <= fst ss)%Z -> (0 <= snd ss)%Z -> (0 <= fst ds)%Z -> (0 <= snd ds)%Z ->
  (0 <= pad_default padding)%Z -> align_ok (norm_align align) ->
  inverse_of F A ->
  forall dy dx, (0 <= dy < fst ds)%Z -> (0 <= dx < snd ds)%Z ->
    let p := aff_apply A (pix_center dy dx) in
    0 <= fst p -> fst p < inject_Z (snd ss) -> 0 <= snd p -> snd p < inject_Z (fst ss) ->
    in_roi (roi_dst r) dy dx /\ in_roi (roi_src r) (Qfloor (snd p)) (Qfloor (fst p)).
Proof.
  intros c ss ds A F ttol stol padding align r Hr Hp S1 S2 D1 D2 Hpad Hal Hinv.
  destruct (sampled_rois _ _ _ _ _ _ _ _ _ _ Hr Hp) as [-> ->]. apply affine_rois_incl; assumption.
Qed.
Print Assumptions C03_same_crs_sampled_inclusion.

(** the requested padding (default 1) is honoured: every source pixel within [padding] of a needed
    one (and inside the image) is part of the source region *)
Theorem C03_same_crs_sampled_padding :
  forall c ss ds A F ttol stol padding align r,
  reproject_linear c ss ds A F ttol stol padding align = Ok r ->
  paste_ok r = false ->
  (0 <= fst ss)%Z -> (0 <= snd ss)%Z -> (0 <= fst ds)%Z -> (0 <= snd ds)%Z ->
  (0 <= pad_default padding)%Z -> align_ok (norm_align align) ->
  inverse_of F A ->
  forall dy dx, (0 <= dy < fst ds)%Z -> (0 <= dx < snd ds)%Z ->
    let p := aff_apply A (pix_center dy dx) in
    0 <= fst p -> fst p < inject_Z (snd ss) -> 0 <= snd p -> snd p < inject_Z (fst ss) ->
    forall jy jx,
      (Qfloor (snd p) - pad_default padding <= jy <= Qfloor (snd p) + pad_default padding)%Z ->
      (Qfloor (fst p) - pad_default padding <= jx <= Qfloor (fst p) + pad_default padding)%Z ->
      (0 <= jy < fst ss)%Z -> (0 <= jx < snd ss)%Z ->
      in_roi (roi_src r) jy jx.
Proof.
  intros c ss ds A F ttol stol padding align r Hr Hp S1 S2 D1 D2 Hpad Hal Hinv dy dx Hdy Hdx p _ _ _ _ jy jx Jy Jx Ry Rx.
  destruct (sampled_rois _ _ _ _ _ _ _ _ _ _ Hr Hp) as [-> _].
  apply (affine_rois_src A F ss ds _ _ dy dx); assumption.
Qed.
Print Assumptions C03_same_crs_sampled_padding.

Theorem C03_same_crs_sampled_within :
  forall c ss ds A F ttol stol padding align r,
  reproject_linear c ss ds A F ttol stol padding align = Ok r -> paste_ok r = false ->
  (0 <= fst ss)%Z -> (0 <= snd ss)%Z -> (0 <= fst ds)%Z -> (0 <= snd ds)%Z ->
  (0 <= fst (fst (roi_src r)) <= fst ss /\ 0 <= snd (fst (roi_src r)) <= fst ss /\
   0 <= fst (snd (roi_src r)) <= snd ss /\ 0 <= snd (snd (roi_src r)) <= snd ss)%Z /\
  (0 <= fst (fst (roi_dst r)) <= fst ds /\ 0 <= snd (fst (roi_dst r)) <= fst ds /\
   0 <= fst (snd (roi_dst r)) <= snd ds /\ 0 <= snd (snd (roi_dst r)) <= snd ds)%Z.
Proof.
  intros c ss ds A F ttol stol padding align r Hr Hp S1 S2 D1 D2.
  destruct (sampled_rois _ _ _ _ _ _ _ _ _ _ Hr Hp) as [-> ->]. apply relative_rois_within; assumption.
Qed.
Print Assumptions C03_same_crs_sampled_within.

(** the regions are well-formed slices: start <= stop on both axes of both regions (an empty
    region is [k:k], never a reversed pair that numpy would read as a wrap-around) *)
Theorem C03_same_crs_sampled_ordered :
  forall c ss ds A F ttol stol padding align r,
  reproject_linear c ss ds A F ttol stol padding align = Ok r -> paste_ok r = false ->
  (0 <= fst ss)%Z -> (0 <= snd ss)%Z -> (0 <= fst ds)%Z -> (0 <= snd ds)%Z ->
  (0 <= pad_default padding)%Z -> align_ok (norm_align align) ->
  roi_ordered (roi_src r) /\ roi_ordered (roi_dst r).
Proof.
  intros c ss ds A F ttol stol padding align r Hr Hp S1 S2 D1 D2 Hpad Hal.
  destruct (sampled_rois _ _ _ _ _ _ _ _ _ _ Hr Hp) as [-> ->]. apply relative_rois_ordered; assumption.
Qed.
Print Assumptions C03_same_crs_sampled_ordered.

(** separated by more than the padding margin (whatever the alignment: the source region is aligned only
    when the un-aligned padded envelope meets the image) -> source region empty, destination 0:0 *)
Theorem C03_same_crs_sampled_separated_empty :
  forall c ss ds A F ttol stol padding align r,
  reproject_linear c ss ds A F ttol stol padding align = Ok r -> paste_ok r = false ->
  (0 <= fst ss)%Z -> (0 <= snd ss)%Z -> (0 <= pad_default padding)%Z ->
  let pts := map (aff_pt A) (boundary_pts ((0%Z, fst ds), (0%Z, snd ds)) 2) in
  axis_sep (xs_of pts) (snd ss) (pad_default padding) None \/
  axis_sep (ys_of pts) (fst ss) (pad_default padding) None ->
  roi_empty (roi_src r) = true /\ roi_dst r = ((0, 0), (0, 0))%Z.
Proof.
  intros c ss ds A F ttol stol padding align r Hr Hp S1 S2 Hpad pts Hs.
  destruct (sampled_rois _ _ _ _ _ _ _ _ _ _ Hr Hp) as [-> ->]. apply relative_rois_sep; assumption.
Qed.
Print Assumptions C03_same_crs_sampled_separated_empty.

(** [axis_sep] holds when every projected corner is beyond the image by the margin *)
Theorem C03_separated_by_margin :
  forall vals n pad align,
  (forall v, In v vals -> v <= - inject_Z pad) \/
  (forall v, In v vals -> inject_Z (n + align_slack align + pad) <= v) ->
  axis_sep vals n pad align.
Proof.
  intros [|v vs] n pad align H; [exact I|]. destruct H as [H | H]; [left | right].
  - specialize (H _ (proj1 (Qmax_list_spec v vs))).
    assert (Qceiling (Qmax_list v vs) <= - pad)%Z by (apply Qceiling_le_iff; rewrite inject_Z_opp; exact H). lia.
  - specialize (H _ (proj1 (Qmin_list_spec v vs))).
    assert (n + align_slack align + pad <= Qfloor (Qmin_list v vs))%Z by (apply Qfloor_ge_iff; exact H). lia.
Qed.
Print Assumptions C03_separated_by_margin.

(** same CRS, paste path ([k] = read_shrink; [P] = snapped transform into the k-fold overview):
    inclusion for ANY true source location (px, py) whose overview coordinate is within half a
    pixel of the snapped transform (sub-pixel shift < ttol, accumulated scale deviation) *)
Theorem C03_same_crs_paste_inclusion :
  forall c ss ds A F ttol stol padding align r,
  reproject_linear c ss ds A F ttol stol padding align = Ok r -> paste_ok r = true ->
  (0 <= fst ss)%Z -> (0 <= snd ss)%Z -> (0 <= fst ds)%Z -> (0 <= snd ds)%Z -> tol_ok c stol ->
  let k := read_shrink r in
  let P := paste_affine c A ttol stol k in
  forall dy dx, (0 <= dy < fst ds)%Z -> (0 <= dx < snd ds)%Z ->
  forall px py : Q,
    Qabs (px / inject_Z k - fst (aff_apply P (pix_center dy dx))) < 1#2 ->
    Qabs (py / inject_Z k - snd (aff_apply P (pix_center dy dx))) < 1#2 ->
    0 <= px -> px < inject_Z (snd ss) -> 0 <= py -> py < inject_Z (fst ss) ->
    in_roi (roi_dst r) dy dx /\ in_roi (roi_src r) (Qfloor py) (Qfloor px).
Proof.
  intros c ss ds A F ttol stol padding align r Hr Hp S1 S2 D1 D2 Htol k P dy dx Hdy Hdx px py Dx Dy X0 X1 Y0 Y1.
  destruct (paste_structure _ _ _ _ _ _ _ _ _ _ Hr Hp S1 S2 D1 D2 Htol) as (K1 & tx & ty & rs & rd & HP & Fy & Fx & -> & -> & _).
  destruct (src_dims_spec ss _ S1 S2 K1) as [(_ & Cy & _) (_ & Cx & _)].
  unfold P, k in Dx, Dy. rewrite HP in Dx, Dy.
  destruct (aff_apply_unit (Qltb (aa A) 0) (Qltb (ae A) 0) tx ty dy dx) as [Ex Ey].
  destruct (axis_paste_in _ _ _ _ _ _ _ _ dx px _ Fx K1 Cx Hdx Ex Dx X0 X1) as [Ix Sx].
  destruct (axis_paste_in _ _ _ _ _ _ _ _ dy py _ Fy K1 Cy Hdy Ey Dy Y0 Y1) as [Iy Sy].
  rewrite up_roi_eq. split; split; assumption.
Qed.
Print Assumptions C03_same_crs_paste_inclusion.

(** the half-pixel condition holds for the true transform itself when its scale is exactly +-k
    (whole-pixel shift plus a residue below ttol <= 1/2) *)
Theorem C03_paste_drift_exact_scale :
  forall ttol (k tx : Z) (a t : Q) (flip : bool) (d : Z),
  (1 <= k)%Z -> a == unit_q flip * inject_Z k ->
  Qabs (t / inject_Z k - inject_Z tx) < ttol -> ttol <= 1#2 ->
  Qabs ((a * (inject_Z d + (1#2)) + t) / inject_Z k - (unit_q flip * (inject_Z d + (1#2)) + inject_Z tx)) < 1#2.
Proof.
  intros ttol k tx a t flip d Hk Ea Ht Htt.
  assert (Hkq : 0 < inject_Z k) by (apply inject_Z_gt0; lia).
  assert (E : (a * (inject_Z d + (1#2)) + t) / inject_Z k - (unit_q flip * (inject_Z d + (1#2)) + inject_Z tx)
              == t / inject_Z k - inject_Z tx).
  { rewrite Ea. field. lra. }
  rewrite E. lra.
Qed.
Print Assumptions C03_paste_drift_exact_scale.

(** regions inside the images; the source region consists of multiples of k and may extend to the
    next multiple of k beyond the image *)
Theorem C03_same_crs_paste_within :
  forall c ss ds A F ttol stol padding align r,
  reproject_linear c ss ds A F ttol stol padding align = Ok r -> paste_ok r = true ->
  (0 <= fst ss)%Z -> (0 <= snd ss)%Z -> (0 <= fst ds)%Z -> (0 <= snd ds)%Z -> tol_ok c stol ->
  let k := read_shrink r in
  roi_within (roi_dst r) ds /\
  roi_within (roi_src r) (k * fst (src_dims ss k), k * snd (src_dims ss k))%Z /\
  (fst (fst (roi_src r)) mod k = 0 /\ snd (fst (roi_src r)) mod k = 0 /\
   fst (snd (roi_src r)) mod k = 0 /\ snd (snd (roi_src r)) mod k = 0)%Z /\
  (k = 1%Z -> roi_within (roi_src r) ss) /\
  (k * fst (src_dims ss k) < fst ss + k \/ fst ss = 0)%Z /\ (k * snd (src_dims ss k) < snd ss + k \/ snd ss = 0)%Z.
Proof.
  intros c ss ds A F ttol stol padding align r Hr Hp S1 S2 D1 D2 Htol k. subst k.
  destruct (paste_structure _ _ _ _ _ _ _ _ _ _ Hr Hp S1 S2 D1 D2 Htol)
    as (K1 & tx & ty & rs & rd & _ & (Wsy & Wdy & _) & (Wsx & Wdx & _) & -> & -> & _).
  destruct (src_dims_spec ss _ S1 S2 K1) as [(_ & _ & Zy) (_ & _ & Zx)].
  destruct (up_roi_within rs _ _ K1 (conj Wsy Wsx)) as [U1 U2].
  split; [exact (conj Wdy Wdx)|]. split; [exact U1|]. split; [exact U2|]. split; [|exact (conj Zy Zx)].
  intros K. rewrite K in Wsy, Wsx |- *. exact (conj Wsy Wsx).
Qed.
Print Assumptions C03_same_crs_paste_within.

Theorem C03_same_crs_paste_disjoint_empty :
  forall c ss ds A F ttol stol padding align r,
  reproject_linear c ss ds A F ttol stol padding align = Ok r -> paste_ok r = true ->
  (0 <= fst ss)%Z -> (0 <= snd ss)%Z -> (0 <= fst ds)%Z -> (0 <= snd ds)%Z -> tol_ok c stol ->
  let k := read_shrink r in
  let P := paste_affine c A ttol stol k in
  (forall dx, (0 <= dx < snd ds)%Z ->
     let x := fst (aff_apply P (pix_center 0 dx)) in ~ (0 <= x /\ x < inject_Z (snd (src_dims ss k)))) \/
  (forall dy, (0 <= dy < fst ds)%Z ->
     let y := snd (aff_apply P (pix_center dy 0)) in ~ (0 <= y /\ y < inject_Z (fst (src_dims ss k)))) ->
  roi_empty (roi_src r) = true /\ roi_empty (roi_dst r) = true.
Proof.
  intros c ss ds A F ttol stol padding align r Hr Hp S1 S2 D1 D2 Htol k P Hdis.
  destruct (paste_structure _ _ _ _ _ _ _ _ _ _ Hr Hp S1 S2 D1 D2 Htol) as (K1 & tx & ty & rs & rd & HP & Fy & Fx & -> & -> & _).
  unfold P, k in Hdis. rewrite HP in Hdis.
  assert (Hax : (sl_empty (snd rs) /\ sl_empty (snd rd)) \/ (sl_empty (fst rs) /\ sl_empty (fst rd))).
  { destruct Hdis as [H | H]; [left | right].
    - exact (axis_unit_empty _ _ _ _ _ _ _ Fx (fun d => proj1 (aff_apply_unit _ _ _ _ 0 d)) H).
    - exact (axis_unit_empty _ _ _ _ _ _ _ Fy (fun d => proj2 (aff_apply_unit _ _ _ _ d 0)) H). }
  rewrite up_roi_eq. unfold sl_empty in Hax. split; apply roi_empty_true_iff; cbn [fst snd]; nia.
Qed.
Print Assumptions C03_same_crs_paste_disjoint_empty.

(** scale and read_shrink (same CRS, both paths) *)
Theorem C03_scale_and_read_shrink :
  forall c ss ds A F ttol stol padding align r,
  reproject_linear c ss ds A F ttol stol padding align = Ok r -> 0 < c_rs c ->
  let sx := fst (scale_xy r) in let sy := snd (scale_xy r) in
  0 < sx /\ 0 < sy /\
  (* sx = length of the image of a unit x step, sx*sy = area ratio *)
  sx * sx == aa A * aa A + ad A * ad A /\ sx * sy == Qabs (aa A * ae A - ab A * ad A) /\
  (* without rotation/shear: the per-axis pixel-size ratios *)
  (ab A == 0 -> ad A == 0 -> sx == Qabs (aa A) /\ sy == Qabs (ae A)) /\
  (* scale is the smaller one *)
  (scale r == sx \/ scale r == sy) /\ scale r <= sx /\ scale r <= sy /\
  (* read_shrink: positive integer, 1 below scale 1, else floor(scale) or scale snapped up by < tol *)
  (1 <= read_shrink r)%Z /\ (scale r < 1 -> read_shrink r = 1%Z) /\
  (1 <= scale r -> inject_Z (read_shrink r) - c_rs c < scale r /\ scale r < inject_Z (read_shrink r) + 1).
Proof.
  intros c ss ds A F ttol stol padding align r Hr Htol sx sy.
  destruct (reproject_linear_cases _ _ _ _ _ _ _ _ _ _ Hr) as (sx' & sy' & Hs & Hsc & Hxy & Hk & _).
  unfold sx, sy. rewrite Hxy, Hsc in *. cbn [fst snd].
  destruct (scale2_spec _ _ _ Hs) as (P1 & P2 & P3 & P4 & P5).
  destruct (pick_read_scale_spec _ _ _ Htol Hk) as (_ & K1 & K2 & K3).
  destruct (Qminq_spec sx' sy') as (M1 & M2 & M3). tauto.
Qed.
Print Assumptions C03_scale_and_read_shrink.

Theorem C03_pick_read_scale :
  forall scale tol k, 0 < tol -> pick_read_scale scale tol = Ok k ->
  0 < scale /\ (1 <= k)%Z /\ (scale < 1 -> k = 1%Z) /\
  (1 <= scale -> inject_Z k - tol < scale /\ scale < inject_Z k + 1).
Proof. exact pick_read_scale_spec. Qed.
Print Assumptions C03_pick_read_scale.

(** different CRS: the point transforms and the local scale estimate are oracles *)
Section CrossCRS.
  Variables (back fwd : ptrans) (scale_at : Q * Q -> res (Q * Q)).
  Variables (c : consts) (ss ds : shape2) (padding align : option Z).

  (** Not dischargeable without a model of PROJ: the geometric content of the 5-points-per-side
      heuristic.  Tested numerically by the harness (tools/props/c03.py, predicate reproject_crs). *)
  Hypothesis H_boundary_encloses :
    boundary_encloses back fwd ss ds (pad_default padding) (norm_align align).

  Theorem C03_cross_crs_inclusion_conditional :
    forall r,
    reproject_nonlinear c back fwd scale_at ss ds padding align = Ok r ->
    (0 <= fst ss)%Z -> (0 <= snd ss)%Z -> (0 <= fst ds)%Z -> (0 <= snd ds)%Z ->
    (0 <= pad_default padding)%Z -> align_ok (norm_align align) ->
    forall dy dx p, (0 <= dy < fst ds)%Z -> (0 <= dx < snd ds)%Z ->
      back (pix_center dy dx) = Some p ->
      0 <= fst p -> fst p < inject_Z (snd ss) -> 0 <= snd p -> snd p < inject_Z (fst ss) ->
      in_roi (roi_dst r) dy dx /\ in_roi (roi_src r) (Qfloor (snd p)) (Qfloor (fst p)).
  Proof.
    intros r Hr S1 S2 D1 D2 Hp Ha dy dx p Hdy Hdx Hb X0 X1 Y0 Y1.
    destruct (reproject_nonlinear_cases _ _ _ _ _ _ _ _ _ Hr) as (_ & -> & -> & _).
    destruct (H_boundary_encloses dy dx p Hdy Hdx Hb X0 X1 Y0 Y1) as (E1 & E2 & E3 & E4).
    apply relative_rois_incl; try assumption; apply Qfloor_range; assumption.
  Qed.
End CrossCRS.
Print Assumptions C03_cross_crs_inclusion_conditional.

(** unconditional parts for different CRSs (any oracle) *)
Theorem C03_cross_crs_within :
  forall c back fwd scale_at ss ds padding align r,
  reproject_nonlinear c back fwd scale_at ss ds padding align = Ok r ->
  (0 <= fst ss)%Z -> (0 <= snd ss)%Z -> (0 <= fst ds)%Z -> (0 <= snd ds)%Z ->
  paste_ok r = false /\
  (0 <= fst (fst (roi_src r)) <= fst ss /\ 0 <= snd (fst (roi_src r)) <= fst ss /\
   0 <= fst (snd (roi_src r)) <= snd ss /\ 0 <= snd (snd (roi_src r)) <= snd ss)%Z /\
  (0 <= fst (fst (roi_dst r)) <= fst ds /\ 0 <= snd (fst (roi_dst r)) <= fst ds /\
   0 <= fst (snd (roi_dst r)) <= snd ds /\ 0 <= snd (snd (roi_dst r)) <= snd ds)%Z.
Proof.
  intros c back fwd scale_at ss ds padding align r Hr S1 S2 D1 D2.
  destruct (reproject_nonlinear_cases _ _ _ _ _ _ _ _ _ Hr) as (Hp & -> & -> & _).
  split; [exact Hp | apply relative_rois_within; assumption].
Qed.
Print Assumptions C03_cross_crs_within.

Theorem C03_cross_crs_ordered :
  forall c back fwd scale_at ss ds padding align r,
  reproject_nonlinear c back fwd scale_at ss ds padding align = Ok r ->
  (0 <= fst ss)%Z -> (0 <= snd ss)%Z -> (0 <= fst ds)%Z -> (0 <= snd ds)%Z ->
  (0 <= pad_default padding)%Z -> align_ok (norm_align align) ->
  roi_ordered (roi_src r) /\ roi_ordered (roi_dst r).
Proof.
  intros c back fwd scale_at ss ds padding align r Hr S1 S2 D1 D2 Hpad Hal.
  destruct (reproject_nonlinear_cases _ _ _ _ _ _ _ _ _ Hr) as (_ & -> & -> & _).
  apply relative_rois_ordered; assumption.
Qed.
Print Assumptions C03_cross_crs_ordered.

Theorem C03_cross_crs_separated_empty :
  forall c back fwd scale_at ss ds padding align r,
  reproject_nonlinear c back fwd scale_at ss ds padding align = Ok r ->
  (0 <= fst ss)%Z -> (0 <= snd ss)%Z -> (0 <= pad_default padding)%Z ->
  let pts := map back (boundary_pts ((0%Z, fst ds), (0%Z, snd ds)) 5) in
  axis_sep (xs_of pts) (snd ss) (pad_default padding) None \/
  axis_sep (ys_of pts) (fst ss) (pad_default padding) None ->
  roi_empty (roi_src r) = true /\ roi_dst r = ((0, 0), (0, 0))%Z /\ read_shrink r = 1%Z /\ scale r = 0.
Proof.
  intros c back fwd scale_at ss ds padding align r Hr S1 S2 Hpad pts Hs.
  destruct (reproject_nonlinear_cases _ _ _ _ _ _ _ _ _ Hr) as (_ & Es & Ed & Hsc).
  destruct (relative_rois_sep back fwd ss ds 5 _ (norm_align align) S1 S2 Hpad Hs) as [W1 W2].
  rewrite <- Es in W1. rewrite <- Ed in W2. split; [exact W1|]. split; [exact W2|].
  destruct Hsc as [(_ & K & Sc) | (Ne & _)]; [tauto|]. rewrite W2 in Ne. discriminate Ne.
Qed.
Print Assumptions C03_cross_crs_separated_empty.

Theorem C03_cross_crs_scale :
  forall c back fwd scale_at ss ds padding align r,
  reproject_nonlinear c back fwd scale_at ss ds padding align = Ok r -> 0 < c_rs c ->
  (roi_empty (roi_dst r) = true -> read_shrink r = 1%Z /\ scale r = 0) /\
  (roi_empty (roi_dst r) = false ->
     (scale r == fst (scale_xy r) \/ scale r == snd (scale_xy r)) /\
     scale r <= fst (scale_xy r) /\ scale r <= snd (scale_xy r) /\ 0 < scale r /\
     (1 <= read_shrink r)%Z /\ (scale r < 1 -> read_shrink r = 1%Z) /\
     (1 <= scale r -> inject_Z (read_shrink r) - c_rs c < scale r /\ scale r < inject_Z (read_shrink r) + 1)).
Proof.
  intros c back fwd scale_at ss ds padding align r Hr Htol.
  destruct (reproject_nonlinear_cases _ _ _ _ _ _ _ _ _ Hr) as (_ & _ & _ & [(E & K & S) | (E & sx & sy & Hxy & Hs & Hk)]).
  - split; [tauto|]. intros C. congruence.
  - split; [intros C; congruence|]. intros _. rewrite Hxy. cbn [fst snd].
    destruct (pick_read_scale_spec _ _ _ Htol Hk) as (P0 & K1 & K2 & K3).
    rewrite Hs in *. destruct (Qminq_spec sx sy) as (M1 & M2 & M3). tauto.
Qed.
Print Assumptions C03_cross_crs_scale.

(** concrete instances (evaluated, not assumed) on which the hypotheses above are met *)
Definition cdef : consts := mkConsts (1 # 10000000000) (1 # 100000000) (1 # 1000).

(** mirrored, fractional scale: 8 source pixels, 5 destination pixels, x_s = -3/2 x_d + 7 *)
Example C03_ex_axis : axis_overlap 8 5 (-(3#2)) 7 = Ok ((0, 7), (0, 5))%Z.
Proof. vm_compute. reflexivity. Qed.

(** sampled path: 90 degree rotation with a shift, default padding 1 *)
Example C03_ex_sampled :
  let A := mkAff 0 (-(1)) 8 1 0 (-(2)) in
  let F := mkAff 0 1 2 (-(1)) 0 8 in
  inverse_of F A /\
  exists r, reproject_linear cdef (10, 10)%Z (6, 4)%Z A F (1#20) (1#1000) None None = Ok r /\
            paste_ok r = false /\ roi_src r = ((0, 3), (1, 9))%Z /\ roi_dst r = ((0, 6), (2, 4))%Z.
Proof.
  split.
  - intros [x y]. unfold pt_eq, aff_apply. cbn [fst snd aa ab ac ad ae af]. split; ring.
  - eexists. split; [vm_compute; reflexivity|]. cbn. auto.
Qed.

(** paste path with read_shrink 2, mirrored in y, sub-pixel residue 1/32 below ttol = 1/20 *)
Example C03_ex_paste :
  exists r, reproject_linear cdef (9, 12)%Z (4, 5)%Z (mkAff 2 0 (2 + (1#16)) 0 (-(2)) 10) (mkAff (1#2) 0 0 0 (-(1#2)) 5)
                             (1#20) (1#1000) None None = Ok r /\
            paste_ok r = true /\ read_shrink r = 2%Z /\
            roi_src r = ((2, 10), (2, 12))%Z /\ roi_dst r = ((0, 4), (0, 5))%Z /\
            tol_ok cdef (1#1000).
Proof.
  eexists. split; [vm_compute; reflexivity|]. cbn. repeat split; try reflexivity; unfold half; cbn; auto with qarith; try discriminate.
Qed.

(** the enclosing hypothesis is satisfiable: a shifted half-scale map standing in for the oracle *)
Example C03_ex_boundary_encloses :
  let back := aff_pt (mkAff (1#2) 0 1 0 (1#2) 1) in
  let fwd := aff_pt (mkAff 2 0 (-(2)) 0 2 (-(2))) in
  boundary_encloses back fwd (4, 4)%Z (2, 2)%Z 1%Z None /\
  exists r, reproject_nonlinear cdef back fwd (fun _ => Ok (1#2, 1#2)) (4, 4)%Z (2, 2)%Z None None = Ok r /\
            roi_src r = ((0, 3), (0, 3))%Z /\ roi_dst r = ((0, 2), (0, 2))%Z /\ read_shrink r = 1%Z.
Proof.
  split.
  - unfold boundary_encloses. intros dy dx p Hdy Hdx Hb _ _ _ _.
    assert (Cy : dy = 0%Z \/ dy = 1%Z) by (cbn in Hdy; lia).
    assert (Cx : dx = 0%Z \/ dx = 1%Z) by (cbn in Hdx; lia).
    destruct Cy as [-> | ->]; destruct Cx as [-> | ->]; injection Hb as <-; vm_compute; intuition discriminate.
  - eexists. split; [vm_compute; reflexivity|]. cbn. auto.
Qed.

(** Tie to the source: the definitions regenerated by tools/py2v from the current odc/geo/overlap.py and odc/geo/math.py (coq/Gen/MathGen.v, rewritten on every run) are the model (Model/Overlap.v) the theorems above are stated on, up to the error kind. *)
From OG Require Proofs.MathGenEquivO.
Theorem C03_source_is_model : OG.Proofs.MathGenEquivO.overlap_source_is_model.
Proof. exact OG.Proofs.MathGenEquivO.overlap_source_is_model_holds. Qed.
Print Assumptions C03_source_is_model.
