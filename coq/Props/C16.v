(** Property C16 — GeoBox and bounding-box set operations respect the common pixel grid.
    Statements, proved from the lemmas of Proofs/GridOpsProofs.v, + [Print Assumptions].

    Vocabulary (Model/GridOps.v): [geobox crs] = (shape, affine, CRS tag); [crs] and
    its equality [crs_eqb] are arbitrary (nothing is assumed about [crs_eqb]: the
    hypotheses say which tag comparisons are False).  [on_grid base g p]: [g] has the shape
    of the pixel rectangle [p] and its affine equals [base * translation(px p, py p)] with
    integer [px p], [py p] — "GeoBoxes derived from a base grid by integer pixel shifts and
    arbitrary shapes"; [base] is ANY invertible affine (north-up, mirrored, rotated, sheared).
    [atol], [rtol] are numpy.isclose's tolerances, [tol] the near-integer tolerance
    (all three any rationals with 0 <= atol, 0 <= rtol, 0 < tol).
    Floats are exact rationals. *)
From Coq Require Import ZArith QArith Qabs Qminmax List Bool Lia.
From OG Require Import Base.Result Base.Aff2 Model.Tagged Model.GridOps Model.Roi Proofs.GridOpsProofs.
Import ListNotations.
Open Scope Z_scope.

(** ** pixel translation on a common grid is exactly the integer shift *)
Theorem C16_pixel_translation_is_integer_shift :
  forall (crs : Type) (crs_eqb : crs -> crs -> bool) (atol rtol : Q),
    (0 <= atol)%Q -> (0 <= rtol)%Q ->
  forall base : aff, ~ (aff_det base == 0)%Q ->
  forall (a b : geobox crs) (pa pb : pbox),
    on_grid base a pa -> on_grid base b pb -> tag_ne crs_eqb (gcrs a) (gcrs b) = false ->
    exists t : Q * Q,
      pixel_translation crs_eqb atol rtol a b = Ok t /\
      (fst t == inject_Z (px pa - px pb))%Q /\ (snd t == inject_Z (py pa - py pb))%Q.
Proof. exact pixel_translation_on_grid. Qed.
Print Assumptions C16_pixel_translation_is_integer_shift.

Theorem C16_bbox_in_pixel_domain_on_grid :
  forall (crs : Type) (crs_eqb : crs -> crs -> bool) (atol rtol tol : Q),
    (0 <= atol)%Q -> (0 <= rtol)%Q -> (0 < tol)%Q ->
  forall base : aff, ~ (aff_det base == 0)%Q ->
  forall (a ref : geobox crs) (pa pr : pbox),
    on_grid base a pa -> on_grid base ref pr -> tag_ne crs_eqb (gcrs a) (gcrs ref) = false ->
    bbox_in_pix crs_eqb atol rtol tol a ref =
    Ok (mkBB (px pa - px pr) (py pa - py pr) (px pa - px pr + pnx pa) (py pa - py pr + pny pa) None).
Proof. exact bbox_in_pix_on_grid. Qed.
Print Assumptions C16_bbox_in_pixel_domain_on_grid.

(** ** union = smallest on-grid GeoBox containing all operands (any number of operands) *)
Theorem C16_union_is_smallest_enclosing :
  forall (crs : Type) (crs_eqb : crs -> crs -> bool) (atol rtol tol : Q),
    (0 <= atol)%Q -> (0 <= rtol)%Q -> (0 < tol)%Q ->
  forall base : aff, ~ (aff_det base == 0)%Q ->
  forall (g0 : geobox crs) (gs : list (geobox crs)) (p0 : pbox) (ps : list pbox),
    Forall2 (on_grid base) (g0 :: gs) (p0 :: ps) -> same_crs crs_eqb (g0 :: gs) ->
    exists (g : geobox crs) (u : pbox),
      geobox_union crs_eqb atol rtol tol (g0 :: gs) = Ok g /\
      on_grid base g u /\ gcrs g = gcrs g0 /\
      (forall p, In p (p0 :: ps) -> rect_incl p u) /\
      (forall v, (forall p, In p (p0 :: ps) -> rect_incl p v) -> rect_incl u v).
Proof. exact geobox_union_on_grid. Qed.
Print Assumptions C16_union_is_smallest_enclosing.

(** ** intersection = exactly the shared pixels, per axis (so also when only one axis is
    empty); sizes never negative *)
Theorem C16_intersection_is_shared_pixels :
  forall (crs : Type) (crs_eqb : crs -> crs -> bool) (atol rtol tol : Q),
    (0 <= atol)%Q -> (0 <= rtol)%Q -> (0 < tol)%Q ->
  forall base : aff, ~ (aff_det base == 0)%Q ->
  forall (g0 : geobox crs) (gs : list (geobox crs)) (p0 : pbox) (ps : list pbox),
    Forall2 (on_grid base) (g0 :: gs) (p0 :: ps) -> same_crs crs_eqb (g0 :: gs) ->
    exists (g : geobox crs) (u : pbox),
      geobox_intersection crs_eqb atol rtol tol (g0 :: gs) = Ok g /\
      on_grid base g u /\ gcrs g = gcrs g0 /\
      0 <= pnx u /\ 0 <= pny u /\
      (forall i, in_cols u i <-> (forall p, In p (p0 :: ps) -> in_cols p i)) /\
      (forall j, in_rows u j <-> (forall p, In p (p0 :: ps) -> in_rows p j)).
Proof. exact geobox_intersection_on_grid. Qed.
Print Assumptions C16_intersection_is_shared_pixels.

(** consequently: pixel-set form, and "a zero in the shape exactly when nothing is shared" *)
Theorem C16_intersection_pixel_set :
  forall (u : pbox) (ps : list pbox),
    0 <= pnx u -> 0 <= pny u ->
    (forall i, in_cols u i <-> (forall p, In p ps -> in_cols p i)) ->
    (forall j, in_rows u j <-> (forall p, In p ps -> in_rows p j)) ->
    (forall i j, in_pix u i j <-> (forall p, In p ps -> in_pix p i j)) /\
    ((pnx u = 0 \/ pny u = 0) <-> (forall i j, ~ in_pix u i j)).
Proof. exact intersection_pixel_set. Qed.
Print Assumptions C16_intersection_pixel_set.

(** ** commutativity and associativity, as equality of (shape, affine) *)
Theorem C16_union_commutative :
  forall (crs : Type) (crs_eqb : crs -> crs -> bool) (atol rtol tol : Q),
    (0 <= atol)%Q -> (0 <= rtol)%Q -> (0 < tol)%Q ->
  forall base : aff, ~ (aff_det base == 0)%Q ->
  forall (a b : geobox crs) (pa pb : pbox),
    on_grid base a pa -> on_grid base b pb -> same_crs crs_eqb [a; b] ->
    exists g h, gbox_or crs_eqb atol rtol tol a b = Ok g /\ gbox_or crs_eqb atol rtol tol b a = Ok h /\
                shape_aff_eq g h.
Proof.
  intros. eapply lands_on_comm; [eapply gbox_or_on_grid | apply union2_comm | ..]; eassumption.
Qed.
Print Assumptions C16_union_commutative.

Theorem C16_intersection_commutative :
  forall (crs : Type) (crs_eqb : crs -> crs -> bool) (atol rtol tol : Q),
    (0 <= atol)%Q -> (0 <= rtol)%Q -> (0 < tol)%Q ->
  forall base : aff, ~ (aff_det base == 0)%Q ->
  forall (a b : geobox crs) (pa pb : pbox),
    on_grid base a pa -> on_grid base b pb -> same_crs crs_eqb [a; b] ->
    exists g h, gbox_and crs_eqb atol rtol tol a b = Ok g /\ gbox_and crs_eqb atol rtol tol b a = Ok h /\
                shape_aff_eq g h.
Proof.
  intros. eapply lands_on_comm; [eapply gbox_and_on_grid | apply inter2_comm | ..]; eassumption.
Qed.
Print Assumptions C16_intersection_commutative.

Theorem C16_union_associative :
  forall (crs : Type) (crs_eqb : crs -> crs -> bool) (atol rtol tol : Q),
    (0 <= atol)%Q -> (0 <= rtol)%Q -> (0 < tol)%Q ->
  forall base : aff, ~ (aff_det base == 0)%Q ->
  forall (a b c : geobox crs) (pa pb pc : pbox),
    on_grid base a pa -> on_grid base b pb -> on_grid base c pc -> same_crs crs_eqb [a; b; c] ->
    exists ab l bc r,
      gbox_or crs_eqb atol rtol tol a b = Ok ab /\ gbox_or crs_eqb atol rtol tol ab c = Ok l /\
      gbox_or crs_eqb atol rtol tol b c = Ok bc /\ gbox_or crs_eqb atol rtol tol a bc = Ok r /\
      shape_aff_eq l r.
Proof.
  intros. eapply lands_on_assoc; [eapply gbox_or_on_grid | apply union2_assoc | ..]; eassumption.
Qed.
Print Assumptions C16_union_associative.

Theorem C16_intersection_associative :
  forall (crs : Type) (crs_eqb : crs -> crs -> bool) (atol rtol tol : Q),
    (0 <= atol)%Q -> (0 <= rtol)%Q -> (0 < tol)%Q ->
  forall base : aff, ~ (aff_det base == 0)%Q ->
  forall (a b c : geobox crs) (pa pb pc : pbox),
    on_grid base a pa -> on_grid base b pb -> on_grid base c pc -> same_crs crs_eqb [a; b; c] ->
    exists ab l bc r,
      gbox_and crs_eqb atol rtol tol a b = Ok ab /\ gbox_and crs_eqb atol rtol tol ab c = Ok l /\
      gbox_and crs_eqb atol rtol tol b c = Ok bc /\ gbox_and crs_eqb atol rtol tol a bc = Ok r /\
      shape_aff_eq l r.
Proof.
  intros. eapply lands_on_assoc; [eapply gbox_and_on_grid | apply inter2_assoc | ..]; eassumption.
Qed.
Print Assumptions C16_intersection_associative.

(** ** overlap_roi (repaired code) indexes exactly the shared pixels inside the first
    operand; the slices are never reversed and never have a negative bound, so numpy reads
    [x0:x1] as the index set {x0 <= i < x1} *)
Theorem C16_overlap_roi_is_shared_pixels :
  forall (crs : Type) (crs_eqb : crs -> crs -> bool) (atol rtol tol : Q),
    (0 <= atol)%Q -> (0 <= rtol)%Q -> (0 < tol)%Q ->
  forall base : aff, ~ (aff_det base == 0)%Q ->
  forall (a b : geobox crs) (pa pb : pbox),
    on_grid base a pa -> on_grid base b pb -> tag_ne crs_eqb (gcrs b) (gcrs a) = false ->
    exists y0 y1 x0 x1 : Z,
      overlap_roi crs_eqb fixed atol rtol tol a b = Ok ((y0, y1), (x0, x1)) /\
      0 <= x0 <= x1 /\ 0 <= y0 <= y1 /\
      (x0 < x1 -> x1 <= pnx pa) /\ (y0 < y1 -> y1 <= pny pa) /\
      (forall i, x0 <= i < x1 <-> 0 <= i < pnx pa /\ in_cols pb (px pa + i)) /\
      (forall j, y0 <= j < y1 <-> 0 <= j < pny pa /\ in_rows pb (py pa + j)).
Proof.
  intros crs crs_eqb atol rtol tol Ha Hr Ht base Hb a b pa pb Ga Gb Hc. unfold overlap_roi.
  rewrite (bbox_in_pix_on_grid crs crs_eqb atol rtol tol Ha Hr Ht base Hb b a pb pa Gb Ga Hc). simpl.
  destruct Ga as (Hy & Hx & _). rewrite Hy, Hx.
  do 4 eexists. split; [reflexivity|]. unfold in_cols, in_rows. repeat split; lia.
Qed.
Print Assumptions C16_overlap_roi_is_shared_pixels.

(** The code before the repair ([fx_roi_clamp := false]) violated this: for a 10x10 GeoBox
    and a 5-wide box eight pixels to its left (no shared pixel) it returned the column slice
    0:-3, which numpy reads as seven columns.  (Replayed on the implementation from corpus/C16/.) *)
Theorem C16_unrepaired_overlap_roi_refuted :
  exists (a b : geobox unit) (pa pb : pbox) y0 y1 x0 x1,
    on_grid aff_id a pa /\ on_grid aff_id b pb /\
    (forall i, ~ (0 <= i < pnx pa /\ in_cols pb (px pa + i))) /\
    overlap_roi (fun _ _ => true) {| fx_roi_clamp := false |}
                (1 # 100000000) (1 # 100000) (1 # 100000000) a b = Ok ((y0, y1), (x0, x1)) /\
    x1 < 0 /\
    np_get [0; 1; 2; 3; 4; 5; 6; 7; 8; 9] (SSl (Some x0) (Some x1) None) = Some [0; 1; 2; 3; 4; 5; 6].
Proof.
  exists (fam aff_id None (mkPB 0 0 10 10)), (fam aff_id None (mkPB (-8) 0 5 10)),
         (mkPB 0 0 10 10), (mkPB (-8) 0 5 10).
  do 4 eexists.
  split; [unfold on_grid, fam; simpl; repeat split; apply aff_eq_refl|].
  split; [unfold on_grid, fam; simpl; repeat split; apply aff_eq_refl|].
  split; [unfold in_cols; simpl; intros i; lia|].
  split; [vm_compute; reflexivity|].
  split; [lia | vm_compute; reflexivity].
Qed.
Print Assumptions C16_unrepaired_overlap_roi_refuted.

(** ** enclosing: on the source grid, covers every vertex of the region, excess below one
    pixel per side.  [pts] are the region's vertices in the CRS of the GeoBox (projection
    from another CRS is an oracle outside the model); [pix q] are the pixel coordinates of
    vertex [q] in the source GeoBox.  The right/bottom excess is below one pixel unless the
    region is degenerate on that axis at an integer pixel coordinate, where the code keeps
    one pixel ([max(1, span)]) and the excess is exactly one. *)
Theorem C16_enclosing_on_grid_covers_tight :
  forall (crs : Type) (g : geobox crs) (p : Q * Q) (ps : list (Q * Q)),
    ~ (aff_det (gaff g) == 0)%Q ->
    exists (u : geobox crs) (x0 y0 : Z),
      enclosing g true (p :: ps) = Ok u /\
      gaff u = aff_mul (gaff g) (aff_tr (inject_Z x0) (inject_Z y0)) /\ gcrs u = gcrs g /\
      1 <= gnx u /\ 1 <= gny u /\
      let pix := aff_apply (aff_inv (gaff g)) in
      (forall q, In q (p :: ps) ->
         (inject_Z x0 <= fst (pix q))%Q /\ (fst (pix q) <= inject_Z (x0 + gnx u))%Q /\
         (inject_Z y0 <= snd (pix q))%Q /\ (snd (pix q) <= inject_Z (y0 + gny u))%Q) /\
      (exists q, In q (p :: ps) /\ (fst (pix q) < inject_Z x0 + 1)%Q) /\
      (exists q, In q (p :: ps) /\ (snd (pix q) < inject_Z y0 + 1)%Q) /\
      (exists q, In q (p :: ps) /\
         ((inject_Z (x0 + gnx u) - 1 < fst (pix q))%Q \/
          (gnx u = 1 /\ forall q', In q' (p :: ps) -> (fst (pix q') == inject_Z x0)%Q))) /\
      (exists q, In q (p :: ps) /\
         ((inject_Z (y0 + gny u) - 1 < snd (pix q))%Q \/
          (gny u = 1 /\ forall q', In q' (p :: ps) -> (snd (pix q') == inject_Z y0)%Q))).
Proof.
  intros crs g p ps Hd. rewrite (enclosing_eq crs g p ps Hd).
  destruct (enclose_axis (fun q => fst (aff_apply (aff_inv (gaff g)) q)) p ps) as (X1 & X2 & X3 & X4).
  destruct (enclose_axis (fun q => snd (aff_apply (aff_inv (gaff g)) q)) p ps) as (Y1 & Y2 & Y3 & Y4).
  do 3 eexists. split; [reflexivity|]. split; [reflexivity|]. split; [reflexivity|].
  split; [exact X1|]. split; [exact Y1|]. split; [|exact (conj X3 (conj Y3 (conj X4 Y4)))].
  intros q Hq. destruct (X2 q Hq), (Y2 q Hq). auto.
Qed.
Print Assumptions C16_enclosing_on_grid_covers_tight.

(** the pixel coordinates above, shifted by the result's origin, are coordinates in the
    result GeoBox: its affine maps them back to the world vertex *)
Theorem C16_enclosing_world_coordinates :
  forall (A : aff) (q : Q * Q) (tx ty : Q), ~ (aff_det A == 0)%Q ->
    let c := aff_apply (aff_inv A) q in
    pt_eq (aff_apply (aff_mul A (aff_tr tx ty)) ((fst c - tx)%Q, (snd c - ty)%Q)) q.
Proof.
  intros A q tx ty Hd. unfold pt_eq, aff_apply, aff_mul, aff_inv, aff_tr, aff_det in *; simpl.
  split; field; exact Hd.
Qed.
Print Assumptions C16_enclosing_world_coordinates.

Theorem C16_enclosing_errors :
  forall (crs : Type) (g : geobox crs) (pts : list (Q * Q)),
    enclosing g false pts = Err EValue /\
    enclosing g true [] = (if Qeq_bool (aff_det (gaff g)) 0 then Err EOther else Err EValue).
Proof. intros. unfold enclosing; simpl. split; [reflexivity|]. destruct (Qeq_bool _ _); reflexivity. Qed.
Print Assumptions C16_enclosing_errors.

(** ** snap_to: grids [base * translation(p, q)] with ARBITRARY rational (sub-pixel) p, q.
    The result is [self] moved by (sx, sy) pixels with |sx|, |sy| <= 1/2; afterwards
    [other] is a whole number of pixels away — exactly on every axis that moved, and within
    [ztol] (the 1e-8 of maybe_zero) on an axis whose offset was below [ztol] and was
    therefore left in place. *)
Theorem C16_snap_to_half_pixel_onto_grid :
  forall (crs : Type) (crs_eqb : crs -> crs -> bool) (atol rtol : Q),
    (0 <= atol)%Q -> (0 <= rtol)%Q ->
  forall base : aff, ~ (aff_det base == 0)%Q ->
  forall (ztol : Q) (a b : geobox crs) (pa qa pb qb : Q),
    (0 < ztol)%Q -> on_grid_q base a pa qa -> on_grid_q base b pb qb ->
    tag_ne crs_eqb (gcrs b) (gcrs a) = false ->
    exists (u : geobox crs) (sx sy : Q),
      snap_to crs_eqb atol rtol ztol a b = Ok u /\
      gny u = gny a /\ gnx u = gnx a /\ gcrs u = gcrs a /\
      gaff u = aff_mul (gaff a) (aff_tr sx sy) /\
      (Qabs sx <= 1 # 2)%Q /\ (Qabs sy <= 1 # 2)%Q /\
      exists n m : Z,
        (Qabs (pb - pa - sx - inject_Z n) < ztol)%Q /\ (Qabs (qb - qa - sy - inject_Z m) < ztol)%Q /\
        (~ (sx == 0)%Q -> (pb - pa - sx == inject_Z n)%Q) /\
        (~ (sy == 0)%Q -> (qb - qa - sy == inject_Z m)%Q).
Proof. exact snap_to_on_grid_q. Qed.
Print Assumptions C16_snap_to_half_pixel_onto_grid.

(** ** rejection: the exact decision rule, for ALL pairs of GeoBoxes.
    [compatible a ref] = CRS tags compare equal, reference affine invertible, the four
    linear coefficients of [ref^-1 * a] pass isclose against (1,0,0,1), and both
    translations are within [tol] of an integer. *)
Theorem C16_accepted_iff_compatible :
  forall (crs : Type) (crs_eqb : crs -> crs -> bool) (atol rtol tol : Q) (a ref : geobox crs),
    is_ok (bbox_in_pix crs_eqb atol rtol tol a ref) = true <-> compatible crs_eqb atol rtol tol a ref.
Proof. exact bbox_in_pix_accepts_iff. Qed.
Print Assumptions C16_accepted_iff_compatible.

Theorem C16_rejected_iff_not_compatible :
  forall (crs : Type) (crs_eqb : crs -> crs -> bool) (atol rtol tol : Q) (a ref : geobox crs),
    (exists e, bbox_in_pix crs_eqb atol rtol tol a ref = Err e) <-> ~ compatible crs_eqb atol rtol tol a ref.
Proof.
  intros crs crs_eqb atol rtol tol a ref. rewrite <- bbox_in_pix_accepts_iff.
  destruct (bbox_in_pix crs_eqb atol rtol tol a ref); simpl; split.
  - intros (e & E). discriminate.
  - intros C. exfalso. apply C. reflexivity.
  - intros _ C. discriminate.
  - intros _. eauto.
Qed.
Print Assumptions C16_rejected_iff_not_compatible.

(** the error is a ValueError, except for a non-invertible reference affine *)
Theorem C16_rejection_error_kind :
  forall (crs : Type) (crs_eqb : crs -> crs -> bool) (atol rtol tol : Q) (a ref : geobox crs) (e : err),
    bbox_in_pix crs_eqb atol rtol tol a ref = Err e ->
    e = EValue \/
    (e = EOther /\ tag_ne crs_eqb (gcrs a) (gcrs ref) = false /\ (aff_det (gaff ref) == 0)%Q).
Proof. exact bbox_in_pix_error_kind. Qed.
Print Assumptions C16_rejection_error_kind.

(** conversely an accepted pair is within those tolerances of a whole-pixel shift, and for
    [tol <= 1/2] (so that the near integer is the one round() returns) the pixel-domain box
    returned is that shift *)
Theorem C16_accepted_is_near_whole_pixel_shift :
  forall (crs : Type) (crs_eqb : crs -> crs -> bool) (atol rtol tol : Q) (a ref : geobox crs)
         (bb : zbox crs),
    (tol <= 1 # 2)%Q -> bbox_in_pix crs_eqb atol rtol tol a ref = Ok bb ->
    compatible crs_eqb atol rtol tol a ref /\
    (Qabs (ac (rel_aff a ref) - inject_Z (bl bb)) < tol)%Q /\
    (Qabs (af (rel_aff a ref) - inject_Z (bb_ bb)) < tol)%Q /\
    br bb = bl bb + gnx a /\ bt bb = bb_ bb + gny a /\ bcrs bb = None.
Proof.
  intros crs crs_eqb atol rtol tol a ref bb Ht E.
  assert (C : compatible crs_eqb atol rtol tol a ref) by (apply bbox_in_pix_accepts_iff; rewrite E; reflexivity).
  split; [exact C|]. destruct (bbox_in_pix_ok_inv _ _ _ _ _ _ _ _ E) as (_ & ->).
  destruct C as (_ & _ & _ & (n & Hn) & (m & Hm)). cbn [bl bb_ br bt bcrs].
  rewrite (py_round_near _ n), (py_round_near _ m) by (eapply Qlt_le_trans; eassumption).
  repeat split; assumption.
Qed.
Print Assumptions C16_accepted_is_near_whole_pixel_shift.

(** union, intersection and overlap fail exactly when the compatibility test of an operand
    against the first operand fails; the first operand is compatible with itself under the
    hypotheses of [C16_self_compatible] below: its CRS compares equal to itself and its affine
    is invertible *)
Theorem C16_binary_ops_rejected_iff :
  forall (crs : Type) (crs_eqb : crs -> crs -> bool) (atol rtol tol : Q) (fx : fixes) (a b : geobox crs),
    is_ok (gbox_or crs_eqb atol rtol tol a b) =
      is_ok (bbox_in_pix crs_eqb atol rtol tol a a) && is_ok (bbox_in_pix crs_eqb atol rtol tol b a) /\
    is_ok (gbox_and crs_eqb atol rtol tol a b) =
      is_ok (bbox_in_pix crs_eqb atol rtol tol a a) && is_ok (bbox_in_pix crs_eqb atol rtol tol b a) /\
    is_ok (overlap_roi crs_eqb fx atol rtol tol a b) = is_ok (bbox_in_pix crs_eqb atol rtol tol b a).
Proof.
  intros crs crs_eqb atol rtol tol fx a b.
  unfold gbox_or, gbox_and, geobox_union, geobox_intersection, overlap_roi. simpl GridOps.mapM.
  split; [|split].
  1, 2: destruct (bbox_in_pix _ _ _ _ a a) as [x|] eqn:Ea; [|reflexivity];
    destruct (bbox_in_pix _ _ _ _ b a) as [y|] eqn:Eb; [|reflexivity];
    apply bbox_in_pix_ok_inv in Ea as (_ & ->), Eb as (_ & ->); reflexivity.
  destruct (bbox_in_pix _ _ _ _ b a); [destruct (fx_roi_clamp fx)|]; reflexivity.
Qed.
Print Assumptions C16_binary_ops_rejected_iff.

Theorem C16_self_compatible :
  forall (crs : Type) (crs_eqb : crs -> crs -> bool) (atol rtol tol : Q) (a : geobox crs),
    (0 <= atol)%Q -> (0 <= rtol)%Q -> (0 < tol)%Q ->
    tag_ne crs_eqb (gcrs a) (gcrs a) = false -> ~ (aff_det (gaff a) == 0)%Q ->
    is_ok (bbox_in_pix crs_eqb atol rtol tol a a) = true.
Proof.
  intros crs crs_eqb atol rtol tol a H1 H2 H3 Hc Hd.
  assert (G : on_grid (gaff a) a (mkPB 0 0 (gnx a) (gny a))).
  { split; [reflexivity|]. split; [reflexivity|]. symmetry. apply aff_mul_id_r. }
  rewrite (bbox_in_pix_on_grid crs crs_eqb atol rtol tol H1 H2 H3 (gaff a) Hd a a _ _ G G Hc). reflexivity.
Qed.
Print Assumptions C16_self_compatible.

(** ** BoundingBox lattice laws for ALL rational boxes (also inverted ones: the
    intersection of disjoint boxes is the inverted box (max lefts, min rights), and every
    law below holds edge-wise for it too).  [box_le a u]: a's edges lie inside u's. *)
Theorem C16_bbox_commutative :
  forall (crs : Type) (crs_eqb : crs -> crs -> bool) (a b u v : bbox crs Q),
    (qbox_or crs_eqb a b = Ok u -> qbox_or crs_eqb b a = Ok v -> box_eq u v) /\
    (qbox_and crs_eqb a b = Ok u -> qbox_and crs_eqb b a = Ok v -> box_eq u v).
Proof.
  intros crs crs_eqb a b u v. split; intros H1 H2;
    [apply qbox_or_inv in H1 as (_ & ->), H2 as (_ & ->) | apply qbox_and_inv in H1 as (_ & ->), H2 as (_ & ->)];
    repeat split; first [apply Q.min_comm | apply Q.max_comm].
Qed.
Print Assumptions C16_bbox_commutative.

Theorem C16_bbox_associative :
  forall (crs : Type) (crs_eqb : crs -> crs -> bool) (a b c ab l bc r : bbox crs Q),
    (qbox_or crs_eqb a b = Ok ab -> qbox_or crs_eqb ab c = Ok l ->
     qbox_or crs_eqb b c = Ok bc -> qbox_or crs_eqb a bc = Ok r -> box_eq l r) /\
    (qbox_and crs_eqb a b = Ok ab -> qbox_and crs_eqb ab c = Ok l ->
     qbox_and crs_eqb b c = Ok bc -> qbox_and crs_eqb a bc = Ok r -> box_eq l r).
Proof.
  intros crs crs_eqb a b c ab l bc r. split; intros H1 H2 H3 H4;
    [apply qbox_or_inv in H1 as (_ & ->), H2 as (_ & ->), H3 as (_ & ->), H4 as (_ & ->)
    |apply qbox_and_inv in H1 as (_ & ->), H2 as (_ & ->), H3 as (_ & ->), H4 as (_ & ->)];
    repeat split; first [apply Q.min_assoc | apply Q.max_assoc].
Qed.
Print Assumptions C16_bbox_associative.

Theorem C16_bbox_idempotent :
  forall (crs : Type) (crs_eqb : crs -> crs -> bool) (a u v : bbox crs Q),
    (qbox_or crs_eqb a a = Ok u -> box_eq u a) /\ (qbox_and crs_eqb a a = Ok v -> box_eq v a).
Proof.
  intros crs crs_eqb a u v. split; intros H; [apply qbox_or_inv in H as (_ & ->) | apply qbox_and_inv in H as (_ & ->)];
    repeat split; first [apply Q.min_id | apply Q.max_id].
Qed.
Print Assumptions C16_bbox_idempotent.

Theorem C16_bbox_absorbing :
  forall (crs : Type) (crs_eqb : crs -> crs -> bool) (a b i u j v : bbox crs Q),
    (qbox_and crs_eqb a b = Ok i -> qbox_or crs_eqb a i = Ok u -> box_eq u a) /\
    (qbox_or crs_eqb a b = Ok j -> qbox_and crs_eqb a j = Ok v -> box_eq v a).
Proof.
  intros crs crs_eqb a b i u j v. split; intros H1 H2;
    [apply qbox_and_inv in H1 as (_ & ->); apply qbox_or_inv in H2 as (_ & ->)
    |apply qbox_or_inv in H1 as (_ & ->); apply qbox_and_inv in H2 as (_ & ->)];
    repeat split; first [apply Qmin_max_absorb | apply Qmax_min_absorb].
Qed.
Print Assumptions C16_bbox_absorbing.

Theorem C16_bbox_containment :
  forall (crs : Type) (crs_eqb : crs -> crs -> bool) (a b u i : bbox crs Q),
    (qbox_or crs_eqb a b = Ok u -> box_le a u /\ box_le b u) /\
    (qbox_and crs_eqb a b = Ok i -> box_le i a /\ box_le i b).
Proof.
  intros crs crs_eqb a b u i. split; intros H; [apply qbox_or_inv in H as (_ & ->) | apply qbox_and_inv in H as (_ & ->)];
    repeat split; first [apply Q.le_min_l | apply Q.le_min_r | apply Q.le_max_l | apply Q.le_max_r].
Qed.
Print Assumptions C16_bbox_containment.

(** the operations are defined exactly when the CRS tags compare equal *)
Theorem C16_bbox_defined_iff_same_crs :
  forall (crs : Type) (crs_eqb : crs -> crs -> bool) (a b : bbox crs Q),
    (tag_ne crs_eqb (bcrs a) (bcrs b) = true ->
       qbox_or crs_eqb a b = Err ECrs /\ qbox_and crs_eqb a b = Err ECrs) /\
    (tag_ne crs_eqb (bcrs a) (bcrs b) = false ->
       exists u i, qbox_or crs_eqb a b = Ok u /\ qbox_and crs_eqb a b = Ok i /\
                   bcrs u = bcrs a /\ bcrs i = bcrs a).
Proof.
  intros crs crs_eqb a b. rewrite qbox_or_eq, qbox_and_eq. split; intros H; rewrite H.
  - auto.
  - eexists _, _. repeat split; reflexivity.
Qed.
Print Assumptions C16_bbox_defined_iff_same_crs.

(** streams of any length: least upper bound / greatest lower bound *)
Theorem C16_bbox_union_nary_least_upper_bound :
  forall (crs : Type) (crs_eqb : crs -> crs -> bool) (x : bbox crs Q) (rest : list (bbox crs Q)),
    (forall y, In y rest -> tag_ne crs_eqb (bcrs x) (bcrs y) = false) ->
    exists u, bbox_union crs_eqb Qmin Qmax (x :: rest) = Ok u /\ bcrs u = bcrs x /\
      (forall y, In y (x :: rest) -> box_le y u) /\
      (forall v : bbox crs Q, (forall y, In y (x :: rest) -> box_le y v) -> box_le u v).
Proof. intros crs crs_eqb. exact (bbox_union_lub crs_eqb Qmin Qmax Qle Qmin_least Qmax_least). Qed.
Print Assumptions C16_bbox_union_nary_least_upper_bound.

Theorem C16_bbox_intersection_nary_greatest_lower_bound :
  forall (crs : Type) (crs_eqb : crs -> crs -> bool) (x : bbox crs Q) (rest : list (bbox crs Q)),
    (forall y, In y rest -> tag_ne crs_eqb (bcrs x) (bcrs y) = false) ->
    exists u, bbox_intersection crs_eqb Qmin Qmax (x :: rest) = Ok u /\ bcrs u = bcrs x /\
      (forall y, In y (x :: rest) -> box_le u y) /\
      (forall v : bbox crs Q, (forall y, In y (x :: rest) -> box_le v y) -> box_le v u).
Proof.
  intros crs crs_eqb x rest. rewrite bbox_intersection_swap.
  exact (bbox_union_lub crs_eqb Qmax Qmin (fun a b => (b <= a)%Q) Qmax_least Qmin_least x rest).
Qed.
Print Assumptions C16_bbox_intersection_nary_greatest_lower_bound.

(** ** Non-vacuity: a rotated+mirrored base (det = -2), three GeoBoxes on its grid, real
    tolerances; the hypotheses hold and the operations evaluate as the theorems say
    (the x axis of the intersection is empty, the y axis is not). *)
Definition ex_base : aff := mkAff 1 1 (7 # 2) 1 (-1) (-3).
Definition ex_a : geobox Z := fam ex_base (Some 4326) (mkPB 0 0 10 8).
Definition ex_b : geobox Z := fam ex_base (Some 4326) (mkPB 4 (-3) 10 8).
Definition ex_c : geobox Z := fam ex_base (Some 4326) (mkPB (-20) 2 5 4).
Example C16_example :
  ~ (aff_det ex_base == 0)%Q /\ on_grid ex_base ex_a (mkPB 0 0 10 8) /\ same_crs Z.eqb [ex_a; ex_b; ex_c] /\
  (exists g, gbox_or Z.eqb (1 # 100000000) (1 # 100000) (1 # 100000000) ex_a ex_b = Ok g
             /\ gnx g = 14 /\ gny g = 11) /\
  (exists g, gbox_and Z.eqb (1 # 100000000) (1 # 100000) (1 # 100000000) ex_a ex_b = Ok g
             /\ gnx g = 6 /\ gny g = 5) /\
  (exists g, gbox_and Z.eqb (1 # 100000000) (1 # 100000) (1 # 100000000) ex_a ex_c = Ok g
             /\ gnx g = 0 /\ gny g = 4) /\
  overlap_roi Z.eqb fixed (1 # 100000000) (1 # 100000) (1 # 100000000) ex_a ex_c = Ok ((2, 6), (0, 0)).
Proof.
  split; [vm_compute; discriminate|].
  split; [unfold on_grid, ex_a, fam; simpl; repeat split; apply aff_eq_refl|].
  split.
  { intros x y [<- | [<- | [<- | []]]] [<- | [<- | [<- | []]]]; reflexivity. }
  split; [eexists; split; [vm_compute; reflexivity | split; reflexivity]|].
  split; [eexists; split; [vm_compute; reflexivity | split; reflexivity]|].
  split; [eexists; split; [vm_compute; reflexivity | split; reflexivity]|].
  vm_compute. reflexivity.
Qed.
