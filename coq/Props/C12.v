(** Property C12 — tile queries and tile dependency graphs are complete.
    The lemmas are in Proofs/TileQueryProofs.v.  Floats are exact rationals.

    Vocabulary.  An [axis] is one dimension of a tiling: [AReg N n] (roi.Tiles,
    base size N, tile size n) or [AVar chunks] (roi.VariableSizedTiles).
    [ax_ok]: N >= 1 and n >= 1, resp. all chunks >= 0 with a positive total.
    [tiling_ok t NY NX]: both axes valid and the tiling covers a raster of shape
    (NY, NX).  [ax_range a k = Ok (lo, hi)]: tile [k] covers pixels lo..hi-1, i.e.
    the pixel-space interval [lo, hi].  [fmap s t x = s*x + t];
    [mlo s t x0 x1] / [mhi s t x0 x1] = min / max of the images of x0 and x1:
    the interval onto which an axis of a destination tile is mapped.
    [edge g d s]: the dictionary [g] lists source tile [s] for destination tile [d]. *)
From Coq Require Import QArith Qabs List Lia.
From OG Require Import Base.Result Model.TileQuery Proofs.TileQueryProofs.
Import ListNotations.
Open Scope Z_scope.

(** regular and variable tilings: [locate p] is the one tile whose pixel range
    contains [p]; IndexError exactly outside of the base *)
Theorem C12_locate :
  forall a p, ax_ok a ->
    (0 <= p < ax_base a ->
     exists k lo hi, ax_locate a p = Ok k /\ 0 <= k < ax_count a /\ ax_range a k = Ok (lo, hi) /\ lo <= p < hi /\
       forall k' lo' hi', 0 <= k' < ax_count a -> ax_range a k' = Ok (lo', hi') -> lo' <= p < hi' -> k' = k) /\
    (~ 0 <= p < ax_base a -> ax_locate a p = Err EIndex).
Proof.
  intros a p H. split; [|intros Hp; unfold ax_locate; rewrite (oob_true _ _ Hp); reflexivity].
  intros Hp. destruct (locate_off a p H Hp) as (k & Ek & Hk & Pk).
  exists k, (ax_off a k), (ax_off a (k + 1)). split; [exact Ek|]. split; [exact Hk|].
  split; [apply range_off; assumption|]. split; [exact Pk|].
  intros k' lo' hi' Hk' Er Hin. destruct (range_inv H Hk' Er) as [-> ->].
  pose proof (locate_ge a p k k' H Hk ltac:(lia) Pk ltac:(lia)).
  pose proof (locate_le a p k k' H Hk Hk' Pk ltac:(lia)). lia.
Qed.
Print Assumptions C12_locate.

Theorem C12_locate_2d :
  forall t NY NX y x, tiling_ok t NY NX ->
    (0 <= y < NY /\ 0 <= x < NX ->
     exists iy ix, locate t y x = Ok (iy, ix) /\ ax_locate (t_y t) y = Ok iy /\ ax_locate (t_x t) x = Ok ix) /\
    (~ (0 <= y < NY /\ 0 <= x < NX) -> locate t y x = Err EIndex).
Proof.
  intros t NY NX y x (Hy & Hx & By & Bx). rewrite <- By, <- Bx. split.
  - intros [Py Px].
    destruct (locate_off _ y Hy Py) as (iy & Ey & _), (locate_off _ x Hx Px) as (ix & Ex & _).
    exists iy, ix. split; [apply locate_2d; assumption | auto].
  - apply locate_outside.
Qed.
Print Assumptions C12_locate_2d.

(** pixel-space bounding-box queries (range_from_bbox, tiles(BoundingBox without CRS)):
    for every valid tiling and EVERY box (inside, straddling, outside, larger,
    degenerate, inverted) the query succeeds, returns valid tile indices, and
    contains every non-empty tile whose pixel rectangle meets the interior of the box *)
Theorem C12_pixel_box_query_complete :
  forall t NY NX bx1 by1 bx2 by2, tiling_ok t NY NX ->
  exists l, tiles_from_pix_bbox t NY NX (bx1, by1, bx2, by2) = Ok l /\
    (forall iy ix, In (iy, ix) l -> 0 <= iy < ax_count (t_y t) /\ 0 <= ix < ax_count (t_x t)) /\
    (forall iy ix ylo yhi xlo xhi,
        0 <= iy < ax_count (t_y t) -> 0 <= ix < ax_count (t_x t) ->
        ax_range (t_y t) iy = Ok (ylo, yhi) -> ax_range (t_x t) ix = Ok (xlo, xhi) ->
        ylo < yhi -> xlo < xhi ->
        (inject_Z xlo < bx2)%Q -> (bx1 < inject_Z xhi)%Q ->
        (inject_Z ylo < by2)%Q -> (by1 < inject_Z yhi)%Q ->
        In (iy, ix) l).
Proof.
  intros t NY NX bx1 by1 bx2 by2 Ht.
  destruct (pix_query_complete t NY NX bx1 by1 bx2 by2 Ht) as (l & E & A & B & _). eauto.
Qed.
Print Assumptions C12_pixel_box_query_complete.

(** the same, with a witness point strictly inside both the box and the tile *)
Theorem C12_pixel_box_query_point :
  forall t NY NX bx1 by1 bx2 by2 l iy ix ylo yhi xlo xhi (u v : Q), tiling_ok t NY NX ->
    tiles_from_pix_bbox t NY NX (bx1, by1, bx2, by2) = Ok l ->
    0 <= iy < ax_count (t_y t) -> 0 <= ix < ax_count (t_x t) ->
    ax_range (t_y t) iy = Ok (ylo, yhi) -> ax_range (t_x t) ix = Ok (xlo, xhi) ->
    (bx1 < u < bx2)%Q -> (by1 < v < by2)%Q ->
    (inject_Z xlo < u < inject_Z xhi)%Q -> (inject_Z ylo < v < inject_Z yhi)%Q ->
    In (iy, ix) l.
Proof.
  intros t NY NX bx1 by1 bx2 by2 l iy ix ylo yhi xlo xhi u v Ht El Hiy Hix Ry Rx U V TU TV.
  destruct (pix_query_complete t NY NX bx1 by1 bx2 by2 Ht) as (l' & E & _ & B & _).
  rewrite El in E. injection E as <-.
  destruct (point_meets _ _ _ _ _ U TU) as (Nx & X1 & X2), (point_meets _ _ _ _ _ V TV) as (Ny & Y1 & Y2).
  exact (B iy ix ylo yhi xlo xhi Hiy Hix Ry Rx Ny Nx X1 X2 Y1 Y2).
Qed.
Print Assumptions C12_pixel_box_query_point.

(** Geometry queries.  Oracles: the pixel-space bounding box of the query
    (pyproj conversion, shapely bounds, GeoBox.project) and shapely [disjoint]. *)
Section GeometryOracles.
  Variable P : Type.
  Variable pix_bbox_of : P -> res q4.
  Variable disjoint : P -> Z * Z -> bool.

  (** exactly the range candidates that the oracle reports non-disjoint *)
  Theorem C12_geometry_query_exact :
    forall t NY NX q l, tiles_query pix_bbox_of disjoint t NY NX q = Ok l ->
    exists b cand, pix_bbox_of q = Ok b /\ tiles_from_pix_bbox t NY NX b = Ok cand /\
                   forall idx, In idx l <-> (In idx cand /\ disjoint q idx = false).
  Proof. intros t NY NX q l. apply tiles_query_spec. Qed.

  (** and on a valid tiling it fails only if the oracle does *)
  Theorem C12_geometry_query_total :
    forall t NY NX q b, tiling_ok t NY NX -> pix_bbox_of q = Ok b ->
    exists l, tiles_query pix_bbox_of disjoint t NY NX q = Ok l.
  Proof. exact (tiles_query_ok pix_bbox_of disjoint). Qed.
End GeometryOracles.
Print Assumptions C12_geometry_query_exact.
Print Assumptions C12_geometry_query_total.

(** Linear dependency graph: for ALL scale+translation affines (mirrored,
    scaled, shifted by any amount), all regular/variable tilings of both rasters *)

(** never an error; exactly one entry per destination tile, in row-major order *)
Theorem C12_linear_total :
  forall dst src NYd NXd NYs NXs A, tiling_ok dst NYd NXd -> tiling_ok src NYs NXs ->
  exists g, grid_intersect_linear dst src NYs NXs A = Ok g /\ map fst g = all_tiles dst.
Proof.
  intros dst src NYd NXd NYs NXs A Hd Hs. unfold grid_intersect_linear.
  destruct (mapM_ok (fun idx => s <- linear_deps_tile dst src NYs NXs A idx ;; Ok (idx, s)) (all_tiles dst))
    as [g Eg].
  { intros [dy dx] [Hy Hx]%all_tiles_In.
    destruct (linear_tile_complete dst src NYd NXd NYs NXs A dy dx Hd Hs Hy Hx) as (l & -> & _). cbn [bind]. eauto. }
  exists g. split; [exact Eg | apply (res_map_graph Eg)].
Qed.
Print Assumptions C12_linear_total.

(** completeness: every non-empty source tile whose pixel rectangle overlaps the
    mapped destination tile with positive area is listed for it *)
Theorem C12_linear_complete :
  forall dst src NYd NXd NYs NXs A g dy dx sy sx dylo dyhi dxlo dxhi sylo syhi sxlo sxhi,
    tiling_ok dst NYd NXd -> tiling_ok src NYs NXs ->
    grid_intersect_linear dst src NYs NXs A = Ok g ->
    0 <= dy < ax_count (t_y dst) -> 0 <= dx < ax_count (t_x dst) ->
    0 <= sy < ax_count (t_y src) -> 0 <= sx < ax_count (t_x src) ->
    ax_range (t_y dst) dy = Ok (dylo, dyhi) -> ax_range (t_x dst) dx = Ok (dxlo, dxhi) ->
    ax_range (t_y src) sy = Ok (sylo, syhi) -> ax_range (t_x src) sx = Ok (sxlo, sxhi) ->
    sylo < syhi -> sxlo < sxhi ->
    (inject_Z sxlo < mhi (a_sx A) (a_tx A) dxlo dxhi)%Q -> (mlo (a_sx A) (a_tx A) dxlo dxhi < inject_Z sxhi)%Q ->
    (inject_Z sylo < mhi (a_sy A) (a_ty A) dylo dyhi)%Q -> (mlo (a_sy A) (a_ty A) dylo dyhi < inject_Z syhi)%Q ->
    edge g (dy, dx) (sy, sx).
Proof. exact linear_graph_complete. Qed.
Print Assumptions C12_linear_complete.

(** point form: if some point of the destination tile is mapped strictly inside
    the source tile, the source tile is listed *)
Theorem C12_linear_complete_point :
  forall dst src NYd NXd NYs NXs A g dy dx sy sx dylo dyhi dxlo dxhi sylo syhi sxlo sxhi (u v : Q),
    tiling_ok dst NYd NXd -> tiling_ok src NYs NXs ->
    grid_intersect_linear dst src NYs NXs A = Ok g ->
    0 <= dy < ax_count (t_y dst) -> 0 <= dx < ax_count (t_x dst) ->
    0 <= sy < ax_count (t_y src) -> 0 <= sx < ax_count (t_x src) ->
    ax_range (t_y dst) dy = Ok (dylo, dyhi) -> ax_range (t_x dst) dx = Ok (dxlo, dxhi) ->
    ax_range (t_y src) sy = Ok (sylo, syhi) -> ax_range (t_x src) sx = Ok (sxlo, sxhi) ->
    (inject_Z dxlo <= u <= inject_Z dxhi)%Q -> (inject_Z dylo <= v <= inject_Z dyhi)%Q ->
    (inject_Z sxlo < a_sx A * u + a_tx A < inject_Z sxhi)%Q ->
    (inject_Z sylo < a_sy A * v + a_ty A < inject_Z syhi)%Q ->
    edge g (dy, dx) (sy, sx).
Proof.
  intros dst src NYd NXd NYs NXs A g dy dx sy sx dylo dyhi dxlo dxhi sylo syhi sxlo sxhi u v
         Hd Hs Eg Hdy Hdx Hsy Hsx R1 R2 R3 R4 U V MU MV.
  destruct (point_overlap _ _ _ _ _ _ _ U MU) as (Nx & X1 & X2), (point_overlap _ _ _ _ _ _ _ V MV) as (Ny & Y1 & Y2).
  exact (linear_graph_complete dst src NYd NXd NYs NXs A g dy dx sy sx _ _ _ _ _ _ _ _
           Hd Hs Eg Hdy Hdx Hsy Hsx R1 R2 R3 R4 Ny Nx X1 X2 Y1 Y2).
Qed.
Print Assumptions C12_linear_complete_point.

(** snapping tolerance: [A] is the affine actually used (snap_affine of the true
    pixel-to-pixel map [A0]); if the two maps differ by at most [delta] at the
    corners of the destination tile, every source tile that overlaps the TRUE
    image of the destination tile by more than [delta] on both axes is listed *)
Theorem C12_linear_complete_beyond_tolerance :
  forall dst src NYd NXd NYs NXs A A0 delta g dy dx sy sx dylo dyhi dxlo dxhi sylo syhi sxlo sxhi,
    tiling_ok dst NYd NXd -> tiling_ok src NYs NXs ->
    grid_intersect_linear dst src NYs NXs A = Ok g ->
    0 <= dy < ax_count (t_y dst) -> 0 <= dx < ax_count (t_x dst) ->
    0 <= sy < ax_count (t_y src) -> 0 <= sx < ax_count (t_x src) ->
    ax_range (t_y dst) dy = Ok (dylo, dyhi) -> ax_range (t_x dst) dx = Ok (dxlo, dxhi) ->
    ax_range (t_y src) sy = Ok (sylo, syhi) -> ax_range (t_x src) sx = Ok (sxlo, sxhi) ->
    sylo < syhi -> sxlo < sxhi ->
    (forall x, x = dxlo \/ x = dxhi -> Qabs (fmap (a_sx A) (a_tx A) x - fmap (a_sx A0) (a_tx A0) x) <= delta)%Q ->
    (forall y, y = dylo \/ y = dyhi -> Qabs (fmap (a_sy A) (a_ty A) y - fmap (a_sy A0) (a_ty A0) y) <= delta)%Q ->
    (inject_Z sxlo + delta < mhi (a_sx A0) (a_tx A0) dxlo dxhi)%Q -> (mlo (a_sx A0) (a_tx A0) dxlo dxhi + delta < inject_Z sxhi)%Q ->
    (inject_Z sylo + delta < mhi (a_sy A0) (a_ty A0) dylo dyhi)%Q -> (mlo (a_sy A0) (a_ty A0) dylo dyhi + delta < inject_Z syhi)%Q ->
    edge g (dy, dx) (sy, sx).
Proof.
  intros dst src NYd NXd NYs NXs A A0 delta g dy dx sy sx dylo dyhi dxlo dxhi sylo syhi sxlo sxhi
         Hd Hs Eg Hdy Hdx Hsy Hsx R1 R2 R3 R4 Ny Nx Cx Cy X1 X2 Y1 Y2.
  destruct (tol_overlap _ _ _ _ _ _ _ _ _ Cx X1 X2) as [X1' X2'], (tol_overlap _ _ _ _ _ _ _ _ _ Cy Y1 Y2) as [Y1' Y2'].
  exact (linear_graph_complete dst src NYd NXd NYs NXs A g dy dx sy sx _ _ _ _ _ _ _ _
           Hd Hs Eg Hdy Hdx Hsy Hsx R1 R2 R3 R4 Ny Nx X1' X2' Y1' Y2').
Qed.
Print Assumptions C12_linear_complete_beyond_tolerance.

(** rasters that do not overlap (the image of the destination raster has no
    common interior with the source raster: apart or merely touching, on either
    axis): no destination tile lists any source tile — and no error (C12_linear_total) *)
Theorem C12_linear_nonoverlap_empty :
  forall dst src NYd NXd NYs NXs A g,
    tiling_ok dst NYd NXd -> grid_intersect_linear dst src NYs NXs A = Ok g ->
    ((mhi (a_sx A) (a_tx A) 0 NXd <= 0)%Q \/ (inject_Z NXs <= mlo (a_sx A) (a_tx A) 0 NXd)%Q \/
     (mhi (a_sy A) (a_ty A) 0 NYd <= 0)%Q \/ (inject_Z NYs <= mlo (a_sy A) (a_ty A) 0 NYd)%Q) ->
    forall d l, In (d, l) g -> l = [].
Proof. exact linear_graph_nonoverlap. Qed.
Print Assumptions C12_linear_nonoverlap_empty.

(** no far-away tiles: every listed source tile is a valid tile within one pixel
    of the mapped destination tile (outward rounding) *)
Theorem C12_linear_listed_tiles_are_near :
  forall dst src NYd NXd NYs NXs A g dy dx sy sx l dylo dyhi dxlo dxhi,
    tiling_ok dst NYd NXd -> tiling_ok src NYs NXs ->
    grid_intersect_linear dst src NYs NXs A = Ok g -> In ((dy, dx), l) g -> In (sy, sx) l ->
    ax_range (t_y dst) dy = Ok (dylo, dyhi) -> ax_range (t_x dst) dx = Ok (dxlo, dxhi) ->
    0 <= dy < ax_count (t_y dst) /\ 0 <= dx < ax_count (t_x dst) /\
    0 <= sy < ax_count (t_y src) /\ 0 <= sx < ax_count (t_x src) /\
    exists sylo syhi sxlo sxhi,
      ax_range (t_y src) sy = Ok (sylo, syhi) /\ ax_range (t_x src) sx = Ok (sxlo, sxhi) /\
      (inject_Z sxlo < mhi (a_sx A) (a_tx A) dxlo dxhi + 1)%Q /\ (mlo (a_sx A) (a_tx A) dxlo dxhi - 1 < inject_Z sxhi)%Q /\
      (inject_Z sylo < mhi (a_sy A) (a_ty A) dylo dyhi + 1)%Q /\ (mlo (a_sy A) (a_ty A) dylo dyhi - 1 < inject_Z syhi)%Q.
Proof. exact linear_graph_near. Qed.
Print Assumptions C12_linear_listed_tiles_are_near.

(** F11 (repaired in the code): the loop body of the unrepaired
    _grid_intersect_linear lists edge tiles for rasters that do not overlap *)
Theorem C12_linear_unrepaired_refuted :
  exists dst src NYd NXd NYs NXs A g,
    tiling_ok dst NYd NXd /\ tiling_ok src NYs NXs /\
    (mhi (a_sx A) (a_tx A) 0 NXd <= 0)%Q /\
    grid_intersect_linear_prefix dst src NYs NXs A = Ok g /\
    edge g (0, 0) (0, 0).
Proof.
  exists (mkTiling (AReg 8 4) (AReg 8 4)), (mkTiling (AReg 8 4) (AReg 8 4)), 8, 8, 8, 8,
         (mkST 1 (-100 # 1) 1 0).
  eexists. split; [|split; [|split; [|split]]].
  - repeat split; simpl; lia.
  - repeat split; simpl; lia.
  - vm_compute. discriminate.
  - vm_compute. reflexivity.
  - eexists. split; [left; reflexivity | left; reflexivity].
Qed.
Print Assumptions C12_linear_unrepaired_refuted.

(** General path (rotated grids, different CRS).  Oracles: the common footprint
    ([None] = empty), pixel bounding boxes and disjointness of the two geometry queries. *)
Section GeneralOracles.
  Variable P : Type.
  Variables (dst_bbox : P -> res q4) (dst_disjoint : P -> Z * Z -> bool).
  Variables (src_bbox : Z * Z -> res q4) (src_disjoint : Z * Z -> Z * Z -> bool).

  (** F14 (repaired in the code): no common footprint => empty graph, not an error *)
  Theorem C12_general_no_common_footprint :
    forall dst src NYd NXd NYs NXs,
      grid_intersect_general (@None P) dst_bbox dst_disjoint src_bbox src_disjoint dst src NYd NXd NYs NXs = Ok [].
  Proof. reflexivity. Qed.

  (** an edge is exactly a pair (destination range candidate of the footprint,
      source range candidate of that destination tile's extent) that both
      oracles report non-disjoint *)
  Theorem C12_general_edges :
    forall dst src NYd NXd NYs NXs fp g,
      grid_intersect_general (Some fp) dst_bbox dst_disjoint src_bbox src_disjoint dst src NYd NXd NYs NXs = Ok g ->
      exists bd candd, dst_bbox fp = Ok bd /\ tiles_from_pix_bbox dst NYd NXd bd = Ok candd /\
        forall d s, edge g d s <->
          (In d candd /\ dst_disjoint fp d = false /\
           exists bs cands, src_bbox d = Ok bs /\ tiles_from_pix_bbox src NYs NXs bs = Ok cands /\
                            In s cands /\ src_disjoint d s = false).
  Proof. exact (general_edges dst_bbox dst_disjoint src_bbox src_disjoint). Qed.

  (** on valid tilings the general path fails only if an oracle fails *)
  Theorem C12_general_total :
    forall dst src NYd NXd NYs NXs fp,
      tiling_ok dst NYd NXd -> tiling_ok src NYs NXs ->
      (exists b, dst_bbox fp = Ok b) -> (forall d, exists b, src_bbox d = Ok b) ->
      exists g, grid_intersect_general (Some fp) dst_bbox dst_disjoint src_bbox src_disjoint
                                       dst src NYd NXd NYs NXs = Ok g.
  Proof. exact (general_ok dst_bbox dst_disjoint src_bbox src_disjoint). Qed.

  (** rasters the oracles report as not overlapping: no edges / empty graph *)
  Theorem C12_general_disjoint_no_edges :
    forall dst src NYd NXd NYs NXs fp g,
      grid_intersect_general (Some fp) dst_bbox dst_disjoint src_bbox src_disjoint dst src NYd NXd NYs NXs = Ok g ->
      ((forall d s, src_disjoint d s = true) -> forall d s, ~ edge g d s) /\
      ((forall d, dst_disjoint fp d = true) -> g = []).
  Proof.
    intros dst src NYd NXd NYs NXs fp g H. split.
    - exact (general_no_edges dst_bbox dst_disjoint src_bbox src_disjoint dst src NYd NXd NYs NXs fp g H).
    - exact (general_empty dst_bbox dst_disjoint src_bbox src_disjoint dst src NYd NXd NYs NXs fp g H).
  Qed.
End GeneralOracles.
Print Assumptions C12_general_no_common_footprint.
Print Assumptions C12_general_edges.
Print Assumptions C12_general_total.
Print Assumptions C12_general_disjoint_no_edges.

(** Non-vacuity. *)
Example C12_ex_tilings :
  tiling_ok (mkTiling (AReg 11 10) (AVar [9; 0; 9; 4])) 11 22 /\
  locate (mkTiling (AReg 11 10) (AVar [9; 0; 9; 4])) 10 18 = Ok (1, 3) /\
  tiles_from_pix_bbox (mkTiling (AReg 11 10) (AVar [9; 0; 9; 4])) 11 22 ((17 # 2), (19 # 2), (37 # 2), (23 # 2))%Q
  = Ok [(0, 0); (0, 1); (0, 2); (0, 3); (1, 0); (1, 1); (1, 2); (1, 3)].
Proof.
  split; [|split; reflexivity].
  repeat split; simpl; try lia. repeat constructor; lia.
Qed.

(** an overlapping, mirrored and scaled pair: dst 4x4 in 2x2 tiles, src 8x8 in 4x4 tiles,
    src_x = -2*dst_x + 8, src_y = 2*dst_y *)
Example C12_ex_linear :
  grid_intersect_linear (mkTiling (AReg 4 2) (AReg 4 2)) (mkTiling (AReg 8 4) (AReg 8 4)) 8 8
                        (mkST (-2 # 1) (8 # 1) (2 # 1) 0)
  = Ok [((0, 0), [(0, 1)]); ((0, 1), [(0, 0)]); ((1, 0), [(1, 1)]); ((1, 1), [(1, 0)])].
Proof. reflexivity. Qed.
