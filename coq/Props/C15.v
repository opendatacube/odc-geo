(** Property C15 — GeoTIFF/COG written through GDAL reads back identical:
    the decision logic of odc/geo/cog/_rio.py (Model/RioCog.v).
    Statements, each closed by a lemma of Proofs/ or in a few lines from such
    lemmas, followed by [Print Assumptions].  GDAL's encode/decode is an oracle: it appears only as
    Section variables with an explicit contract (validated by round-trip
    testing in tools/props/c15.py).

    [ravel shape idx] is numpy's row-major position of element [idx] in an
    array of shape [shape]; [src_index l dims b y x] is the position, in the
    caller's array, of the sample that ends up in output band b, row y,
    column x; bands, rows and columns are 0-based here. *)
From Coq Require Import ZArith List Bool Permutation.
From OG Require Import Base.Result Model.Roi Model.CogLayout Model.RioCog
  Proofs.CogLayoutProofs Proofs.RioCogProofs.
Import ListNotations.
Open Scope Z_scope.

(** ** 1. band layout: accepted shapes and where every sample goes *)

(** 2-d (Y, X); [ya] is the Y axis position handed over by write_cog (absent or 0 for such an array) *)
Theorem C15_layout_2d :
  forall h w ya b y x,
    (ya <> Some 1 -> norm_layout [h; w] (h, w) ya = Ok (L2d, (1, h, w))) /\
    src_index L2d (1, h, w) b y x = ravel [h; w] [y; x].
Proof. intros; split; [apply norm_layout_2d_ok | apply src_index_2d]. Qed.
Print Assumptions C15_layout_2d.

(** 2-d with dims ordered (X, Y) (Y axis position 1, since fix 22d302d): the (w, h) array is
    transposed, input sample (x, y) becomes row y, column x *)
Theorem C15_layout_2d_xy :
  forall h w b y x,
    norm_layout [w; h] (h, w) (Some 1) = Ok (L2dT, (1, h, w)) /\
    src_index L2dT (1, h, w) b y x = ravel [w; h] [x; y].
Proof. intros; split; [apply norm_layout_2d_xy | apply src_index_2d_xy]. Qed.
Print Assumptions C15_layout_2d_xy.

(** band-last (Y, X, B): input sample (y, x, b) becomes band b, row y, column x *)
Theorem C15_layout_band_last :
  forall h w nb b y x,
    norm_layout [h; w; nb] (h, w) None = Ok (LBandLast, (nb, h, w)) /\
    norm_layout [h; w; nb] (h, w) (Some 0) = Ok (LBandLast, (nb, h, w)) /\
    src_index LBandLast (nb, h, w) b y x = ravel [h; w; nb] [y; x; b].
Proof.
  intros; split; [apply norm_layout_band_last_guess|].
  split; [apply norm_layout_band_last_known | apply src_index_band_last].
Qed.
Print Assumptions C15_layout_band_last.

(** band-first (B, Y, X): kept as is.  With the shape-based guess this needs
    (B, Y) <> (Y, X) — a cube-shaped array is taken for band-last, see
    C15_layout_guess_ambiguous_refuted — with the Y axis supplied by
    write_cog / write_cog_layers it holds for every shape. *)
Theorem C15_layout_band_first :
  forall nb h w b y x,
    ((nb, h) <> (h, w) -> norm_layout [nb; h; w] (h, w) None = Ok (LBandFirst, (nb, h, w))) /\
    norm_layout [nb; h; w] (h, w) (Some 1) = Ok (LBandFirst, (nb, h, w)) /\
    src_index LBandFirst (nb, h, w) b y x = ravel [nb; h; w] [b; y; x].
Proof.
  intros; split; [apply norm_layout_band_first_guess|].
  split; [apply norm_layout_band_first_known | apply src_index_band_first].
Qed.
Print Assumptions C15_layout_band_first.

(** the shape-only guess cannot tell a cube-shaped band-first array from a
    band-last one (the witness of fix 1cabe7b, since which the public entry points pass
    the Y axis, C15_layout_band_first) *)
Theorem C15_layout_guess_ambiguous_refuted :
  exists nb h w, norm_layout [nb; h; w] (h, w) None <> Ok (LBandFirst, (nb, h, w)).
Proof. exists 4, 4, 4. vm_compute. discriminate. Qed.
Print Assumptions C15_layout_guess_ambiguous_refuted.

(** complete decision table: which inputs are accepted as what, which are
    rejected with ValueError (3-d shape mismatch, wrong ndim) and which with
    AssertionError (2-d mismatch; band-last forced by the caller but mismatching) *)
Theorem C15_layout_decision_table :
  forall shape g ya,
  match norm_layout shape g ya with
  | Ok (L2d, dims) => exists h w, shape = [h; w] /\ g = (h, w) /\ dims = (1, h, w) /\ ya <> Some 1
  | Ok (L2dT, dims) => exists h w, shape = [w; h] /\ g = (h, w) /\ dims = (1, h, w) /\ ya = Some 1
  | Ok (LBandLast, dims) =>
      exists h w nb, shape = [h; w; nb] /\ g = (h, w) /\ dims = (nb, h, w) /\ (ya = None \/ ya = Some 0)
  | Ok (LBandFirst, dims) =>
      exists nb h w, shape = [nb; h; w] /\ g = (h, w) /\ dims = (nb, h, w) /\
                     (ya = None /\ (nb, h) <> (h, w) \/ exists v, ya = Some v /\ v <> 0)
  | Err EValue =>
      (length shape <> 2%nat /\ length shape <> 3%nat) \/
      exists d0 d1 d2, shape = [d0; d1; d2] /\ g <> (d1, d2) /\
                       (ya = None /\ g <> (d0, d1) \/ exists v, ya = Some v /\ v <> 0)
  | Err (EAssert _) =>
      (exists d0 d1, shape = [d0; d1] /\ (ya <> Some 1 /\ g <> (d0, d1) \/ ya = Some 1 /\ g <> (d1, d0))) \/
      (exists d0 d1 d2, shape = [d0; d1; d2] /\ ya = Some 0 /\ g <> (d0, d1))
  | Err _ => False
  end.
Proof. exact norm_layout_cases. Qed.
Print Assumptions C15_layout_decision_table.

(** the layout map is a bijection between output samples and input positions *)
Theorem C15_layout_map_injective :
  forall l nb h w b y x b' y' x',
    layout_dims_ok l (nb, h, w) ->
    sample_in_range (nb, h, w) b y x -> sample_in_range (nb, h, w) b' y' x' ->
    src_index l (nb, h, w) b y x = src_index l (nb, h, w) b' y' x' ->
    (b, y, x) = (b', y', x').
Proof. exact src_index_inj. Qed.
Print Assumptions C15_layout_map_injective.

Theorem C15_layout_map_onto :
  forall l nb h w,
    layout_dims_ok l (nb, h, w) -> 0 <= nb -> 0 <= h -> 0 <= w ->
    (forall b y x, sample_in_range (nb, h, w) b y x -> 0 <= src_index l (nb, h, w) b y x < nb * h * w) /\
    (forall t, 0 <= t < nb * h * w ->
       exists b y x, sample_in_range (nb, h, w) b y x /\ src_index l (nb, h, w) b y x = t) /\
    Permutation (readback_indices l (nb, h, w)) (zrange (nb * h * w)).
Proof.
  intros l nb h w Hl Nb Nh Nw. split; [intros; apply src_index_bound; assumption|].
  split; [intros; apply src_index_surj; assumption | apply readback_is_permutation; assumption].
Qed.
Print Assumptions C15_layout_map_onto.

Theorem C15_accepted_layouts_are_well_formed :
  forall shape g ya l dims, norm_layout shape g ya = Ok (l, dims) -> layout_dims_ok l dims.
Proof.
  intros shape g ya l dims E. pose proof (norm_layout_cases shape g ya) as C. rewrite E in C.
  destruct l.
  1, 2: destruct C as (? & ? & _ & _ & -> & _); reflexivity.
  all: destruct C as (? & ? & ? & _ & _ & -> & _); exact I.
Qed.
Print Assumptions C15_accepted_layouts_are_well_formed.

(** ** 2. block sizes: positive multiples of 16, shrunk to align_up(dim, 16) for
    an image smaller than the block (which then is covered by one block) *)
Theorem C15_block_sizes :
  forall blocksize w h, 1 <= cog_blocksize blocksize ->
  let '(bx, bh) := default_cog_block blocksize w h in
  0 < bx /\ bx mod 16 = 0 /\ 0 < bh /\ bh mod 16 = 0 /\
  bx = (if (0 <? w) && (w <? cog_blocksize blocksize) then align_up w 16 else align_up (cog_blocksize blocksize) 16) /\
  bh = (if (0 <? h) && (h <? cog_blocksize blocksize) then align_up h 16 else align_up (cog_blocksize blocksize) 16).
Proof.
  intros blocksize w h Hb. unfold default_cog_block.
  destruct (adjust_blocksize_spec (cog_blocksize blocksize) w Hb) as (A & B).
  destruct (adjust_blocksize_spec (cog_blocksize blocksize) h Hb) as (C & D).
  repeat split; assumption.
Qed.
Print Assumptions C15_block_sizes.

Theorem C15_block_sizes_cover_small_images :
  forall blocksize w h, 1 <= cog_blocksize blocksize -> 1 <= w -> 1 <= h ->
  let '(bx, bh) := default_cog_block blocksize w h in
  Z.min w (cog_blocksize blocksize) <= bx <= align_up (cog_blocksize blocksize) 16 /\
  Z.min h (cog_blocksize blocksize) <= bh <= align_up (cog_blocksize blocksize) 16.
Proof.
  intros blocksize w h Hb Hw Hh. unfold default_cog_block.
  split; apply adjust_blocksize_covers; assumption.
Qed.
Print Assumptions C15_block_sizes_cover_small_images.

(** ** 3. requested overview levels: the caller's list, else the default table *)
Theorem C15_overview_levels :
  forall req w h,
    (forall l, req = Some l -> overview_levels req w h = l) /\
    (req = None -> Z.min w h < 512 -> overview_levels req w h = []) /\
    (req = None -> 512 <= w -> 512 <= h -> overview_levels req w h = [2; 4; 8; 16; 32]).
Proof.
  intros req w h. split; [intros l ->; reflexivity|]. split.
  - intros -> H. apply overview_levels_default_small, H.
  - intros -> Hw Hh. apply overview_levels_default_large; assumption.
Qed.
Print Assumptions C15_overview_levels.

Theorem C15_nodata_precedence :
  forall (kw attr : option Z), nodata_of kw attr = match kw with Some v => Some v | None => attr end.
Proof. reflexivity. Qed.
Print Assumptions C15_nodata_precedence.

(** ** 4. overwrite guard *)
Theorem C15_check_write_path :
  forall s p ow,
  match fs_lookup s p, ow with
  | Some _, true =>
      exists s', check_write_path s p ow = (s', Ok tt) /\ fs_lookup s' p = None /\
                 forall q, q <> p -> fs_lookup s' q = fs_lookup s q
  | Some _, false => check_write_path s p ow = (s, Err EIO)
  | None, _ => check_write_path s p ow = (s, Ok tt)
  end.
Proof.
  intros s p ow. unfold check_write_path, fs_exists. destruct (fs_lookup s p) as [c|] eqn:E.
  - destruct ow; [|reflexivity]. eexists; split; [reflexivity|]. split.
    + apply fs_lookup_unlink_same.
    + intros q Hq. apply fs_lookup_unlink_other, Hq.
  - destruct ow; reflexivity.
Qed.
Print Assumptions C15_check_write_path.

Theorem C15_unlinked_iff_overwrite :
  forall s p ow,
    fs_lookup (fst (check_write_path s p ow)) p <> fs_lookup s p <-> (fs_exists s p = true /\ ow = true).
Proof.
  intros s p ow. unfold check_write_path, fs_exists.
  destruct (fs_lookup s p) as [c|] eqn:E; destruct ow; simpl; rewrite ?fs_lookup_unlink_same, ?E.
  - split; [auto | intros _; discriminate].
  - split; [congruence | intros [_ H]; discriminate].
  - split; [congruence | intros [H _]; discriminate].
  - split; [congruence | intros [H _]; discriminate].
Qed.
Print Assumptions C15_unlinked_iff_overwrite.

(** _write_cog: a rejected layout leaves the file system alone; an existing
    destination without overwrite gives IOError with the state unchanged;
    otherwise the destination holds the new content and nothing else changed *)
Theorem C15_destination_replaced_only_on_overwrite :
  forall s shape g ya dest ow content,
  match norm_layout shape g ya with
  | Err e => write_cog_fs s shape g ya dest ow content = (s, Err e)
  | Ok _ =>
      match dest with
      | None => write_cog_fs s shape g ya dest ow content = (s, Ok tt)
      | Some p =>
          if fs_exists s p && negb ow
          then write_cog_fs s shape g ya dest ow content = (s, Err EIO)
          else exists s', write_cog_fs s shape g ya dest ow content = (s', Ok tt) /\
                          fs_lookup s' p = Some content /\
                          forall q, q <> p -> fs_lookup s' q = fs_lookup s q
      end
  end.
Proof.
  intros s shape g ya dest ow content. unfold write_cog_fs.
  destruct (norm_layout shape g ya) as [v|e]; [|reflexivity]. destruct dest as [p|]; [|reflexivity].
  unfold check_write_path. destruct (fs_exists s p), ow; simpl; try reflexivity.
  all: eexists; split; [reflexivity|]; split; [apply fs_lookup_write_same|].
  all: intros q Hq; rewrite fs_lookup_write_other by exact Hq.
  - apply fs_lookup_unlink_other, Hq.
  - reflexivity.
  - reflexivity.
Qed.
Print Assumptions C15_destination_replaced_only_on_overwrite.

Theorem C15_layers_guard :
  forall s n ok p content, n <> 0 -> fs_exists s p = true ->
    write_cog_layers_fs s n ok (Some p) false content = (s, Err EIO).
Proof.
  intros s n ok p content Hn Ex. unfold write_cog_layers_fs, check_write_path.
  destruct (Z.eqb_spec n 0); [contradiction|]. rewrite Ex. reflexivity.
Qed.
Print Assumptions C15_layers_guard.

(** ** 5. read-back, conditional on the GDAL oracle: if decoding what GDAL
    encoded returns the band-first array it was given, then the value read at
    band b, row y, column x is the caller's sample named by the layout. *)
Section WithGDAL.
  Context {A File : Type}.
  Variable gdal_encode : (Z * Z * Z) -> (Z -> Z -> Z -> A) -> File.   (* dims, band/row/col -> value *)
  Variable gdal_decode : File -> Z -> Z -> Z -> A.
  Hypothesis gdal_roundtrip :
    forall dims f b y x, sample_in_range dims b y x -> gdal_decode (gdal_encode dims f) b y x = f b y x.

  Variable pix : Z -> A.                   (* the caller's array, by flat row-major position *)

  Theorem C15_readback_is_input :
    forall shape g ya l dims b y x,
      norm_layout shape g ya = Ok (l, dims) -> sample_in_range dims b y x ->
      gdal_decode (gdal_encode dims (fun b y x => pix (src_index l dims b y x))) b y x =
        pix (src_index l dims b y x).
  Proof. intros shape g ya l dims b y x _ R. apply gdal_roundtrip, R. Qed.
End WithGDAL.
Print Assumptions C15_readback_is_input.

(** ** 6. non-vacuity *)
Example C15_example_band_last :
  write_layout [2; 3; 2] (2, 3) None = Ok ((2, 2, 3), [0; 2; 4; 6; 8; 10; 1; 3; 5; 7; 9; 11]).
Proof. vm_compute. reflexivity. Qed.

Example C15_example_overwrite :
  let s := [(7, 100)] in
  write_cog_fs s [5; 7] (5, 7) None (Some 7) false 200 = (s, Err EIO) /\
  write_cog_fs s [5; 7] (5, 7) None (Some 7) true 200 = ([(7, 200)], Ok tt) /\
  write_cog_fs s [5; 7] (7, 5) None (Some 7) true 200 = (s, Err (EAssert 124)) /\
  default_cog_block None 20 600 = (32, 512) /\
  overview_levels None 512 600 = [2; 4; 8; 16; 32] /\ overview_levels None 511 600 = [].
Proof. vm_compute. repeat split; reflexivity. Qed.

(** Tie to the source: adjust_blocksize and num_overviews (its while loop as a fixpoint on explicit
    fuel) as regenerated by tools/py2v from the current odc/geo/cog/_shared.py (coq/Gen/CogGen.v,
    rewritten on every run) are the model (Model/CogLayout.v) the theorems above are stated on. *)
From OG Require Proofs.CogGenEquiv.
Theorem C15_source_is_model : OG.Proofs.CogGenEquiv.cog_source_is_model.
Proof. exact OG.Proofs.CogGenEquiv.cog_source_is_model_holds. Qed.
Print Assumptions C15_source_is_model.
