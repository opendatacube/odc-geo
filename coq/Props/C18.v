(** Property C18 — part writers: the S3 multi-part upload is initiated exactly
    once under every interleaving; the file sink honours its contract; limits.

    Statements; each follows in a few lines from the invariants [l_inv] / [c_inv] of
    Proofs/S3InitProofs.v and from [sink_finalise_iff] of Proofs/FileSinkProofs.v, the
    examples and refutations by evaluation; each theorem is followed by [Print Assumptions].

    [l_reach new_id true reg0 progs s] : [s] is reachable by SOME
    interleaving (any sequence of enabled thread choices) of the threads whose
    programs (lists of [writer(part, data)] / [writer.finalise(parts)] calls) are
    [progs] -- any number of threads, any program lengths -- in the model of the
    current process-local path of [DelayedS3Writer._ensure_init] including the lock registry of
    [_mpu_local_lock] ([reg0]: whether the lock was registered before; [dict.setdefault] is atomic,
    CPython oracle contract); [c_reach] the
    same for the cluster path, a thread being (worker, program).  [new_id k] is
    the UploadId S3 returns for the (k+1)-th initiation (an oracle; assumed
    non-empty).  [progs_ok]: every [finalise] is given at least one part (else
    it raises at once, _s3.py:311). *)
From Coq Require Import ZArith List Lia.
From OG Require Import Base.Result Model.S3Init Model.FileSink
  Proofs.S3InitProofs Proofs.FileSinkProofs.
Import ListNotations.
Open Scope Z_scope.

Theorem C18_local_at_most_one_create :
  forall new_id : nat -> Z, (forall k, new_id k <> 0) ->
  forall reg0 progs s, progs_ok progs -> l_reach new_id true reg0 progs s -> (l_creates (fst s) <= 1)%nat.
Proof. intros new_id Hn reg0 progs s Hp Hr. eapply l_creates_le_1, l_reach_inv; eauto. Qed.
Print Assumptions C18_local_at_most_one_create.

(** no writer call fails because another thread won the race (nor for any other reason) *)
Theorem C18_local_no_thread_fails :
  forall new_id : nat -> Z, (forall k, new_id k <> 0) ->
  forall reg0 progs s, progs_ok progs -> l_reach new_id true reg0 progs s ->
  forall t th, nth_error (snd s) t = Some th -> l_failed th = false.
Proof. intros new_id Hn reg0 progs s Hp Hr t th. eapply l_no_error, l_reach_inv; eauto. Qed.
Print Assumptions C18_local_no_thread_fails.

(** every call the client has received -- create, upload_part, complete -- carries
    the one id, and the create that issued it is in the log *)
Theorem C18_local_calls_under_one_id :
  forall new_id : nat -> Z, (forall k, new_id k <> 0) ->
  forall reg0 progs s, progs_ok progs -> l_reach new_id true reg0 progs s ->
  count_creates (l_log (fst s)) = l_creates (fst s) /\
  forall c, In c (l_log (fst s)) ->
    call_id c = new_id 0%nat /\ In (KCreate (new_id 0%nat)) (l_log (fst s)).
Proof. intros new_id Hn reg0 progs s Hp Hr. eapply l_calls_ok, l_reach_inv; eauto. Qed.
Print Assumptions C18_local_calls_under_one_id.

(** when every thread has finished: one upload_part per write ([k = true]), one
    complete per finalise ([k = false]), and exactly one initiation if anything was asked *)
Theorem C18_local_finished_run :
  forall new_id : nat -> Z, (forall k, new_id k <> 0) ->
  forall reg0 progs s, progs_ok progs -> l_reach new_id true reg0 progs s -> l_all_done s ->
  (forall k, count_calls k (l_log (fst s)) = count_ops k (concat progs)) /\
  (concat progs <> [] -> l_creates (fst s) = 1%nat).
Proof.
  intros new_id Hn reg0 progs s Hp Hr Hd. pose proof (l_reach_inv _ Hn _ _ _ Hp Hr) as Hi. split.
  - eapply l_all_done_counts; eauto.
  - eapply l_all_done_one_create; eauto.
Qed.
Print Assumptions C18_local_finished_run.

(** while a thread is unfinished some thread can take a step *)
Theorem C18_local_no_deadlock :
  forall new_id : nat -> Z, (forall k, new_id k <> 0) ->
  forall reg0 progs s, progs_ok progs -> l_reach new_id true reg0 progs s ->
  forall t th, nth_error (snd s) t = Some th -> l_finished th = false ->
  exists t' lb s', l_step new_id true s t' = Some (lb, s').
Proof. intros new_id Hn reg0 progs s Hp Hr t th. eapply l_progress, l_reach_inv; eauto. Qed.
Print Assumptions C18_local_no_deadlock.

(** the executable schedule runner used by the correspondence stays inside [l_reach] *)
Theorem C18_local_schedules_are_reachable :
  forall (new_id : nat -> Z) reg0 progs sched lbs s,
    l_run new_id true (l_init reg0 progs) sched = Some (lbs, s) -> l_reach new_id true reg0 progs s.
Proof. intros new_id reg0 progs sched lbs s. apply l_run_reach. constructor. Qed.
Print Assumptions C18_local_schedules_are_reachable.

(** the code before fix a4a8a1e (no re-check under the lock) violates the statement *)
Theorem C18_local_without_recheck_refuted :
  exists progs sched lbs s,
    progs_ok progs /\
    l_run std_id false (l_init true progs) sched = Some (lbs, s) /\
    exists t th, nth_error (snd s) t = Some th /\ l_pc th = LpErr (EAssert 111).
Proof.
  exists race_progs, race_sched. do 2 eexists. split; [repeat constructor|].
  split; [vm_compute; reflexivity|].
  exists 1%nat. eexists. split; vm_compute; reflexivity.
Qed.
Print Assumptions C18_local_without_recheck_refuted.

(** non-vacuity: a complete racing run of two first writes *)
Example C18_local_example :
  exists lbs s, l_run std_id true (l_init true race_progs) race_sched_fixed = Some (lbs, s) /\
    l_all_done s /\ rev (l_log (fst s)) = [KCreate 1; KUpload 1 1; KUpload 2 1].
Proof.
  do 2 eexists. split; [vm_compute; reflexivity|]. split; [|vm_compute; reflexivity].
  intros th H. vm_compute in H. intuition (subst; reflexivity).
Qed.

(** non-vacuity for the very first use of the process-local lock ([reg0 = false]): both threads
    find the registry empty, each creates a lock, the atomic [setdefault] keeps one *)
Example C18_local_fresh_registry_example :
  exists lbs s, l_run std_id true (l_init false race_progs) race_sched_fresh = Some (lbs, s) /\
    l_all_done s /\ l_reg (fst s) = true /\ rev (l_log (fst s)) = [KCreate 1; KUpload 1 1; KUpload 2 1].
Proof.
  do 2 eexists. split; [vm_compute; reflexivity|]. split; [|split; vm_compute; reflexivity].
  intros th H. vm_compute in H. intuition (subst; reflexivity).
Qed.

(** cluster path: all statements hold as long as the shared variable has not been deleted by a
    completed [finalise] ([c_deleted] is monotone), see [C18_cluster_late_first_write] *)

Theorem C18_cluster_at_most_one_create :
  forall new_id : nat -> Z, (forall k, new_id k <> 0) ->
  forall progs s, cprogs_ok progs -> c_reach new_id progs s -> c_deleted (fst s) = false ->
  (c_creates (fst s) <= 1)%nat.
Proof. intros new_id Hn progs s Hp Hr Hd. eapply c_creates_le_1, c_reach_inv; eauto. Qed.
Print Assumptions C18_cluster_at_most_one_create.

Theorem C18_cluster_no_thread_fails :
  forall new_id : nat -> Z, (forall k, new_id k <> 0) ->
  forall progs s, cprogs_ok progs -> c_reach new_id progs s -> c_deleted (fst s) = false ->
  forall t th, nth_error (snd s) t = Some th -> c_failed th = false.
Proof. intros new_id Hn progs s Hp Hr Hd t th. eapply c_no_error, c_reach_inv; eauto. Qed.
Print Assumptions C18_cluster_no_thread_fails.

(** ... and every worker's copy of the upload id is empty or THE id *)
Theorem C18_cluster_calls_under_one_id :
  forall new_id : nat -> Z, (forall k, new_id k <> 0) ->
  forall progs s, cprogs_ok progs -> c_reach new_id progs s -> c_deleted (fst s) = false ->
  count_creates (c_log (fst s)) = c_creates (fst s) /\
  (forall c, In c (c_log (fst s)) ->
    call_id c = new_id 0%nat /\ In (KCreate (new_id 0%nat)) (c_log (fst s))) /\
  (forall w, c_uids (fst s) w = 0 \/ c_uids (fst s) w = new_id 0%nat).
Proof.
  intros new_id Hn progs s Hp Hr Hd. pose proof (c_reach_inv _ Hn _ _ Hp Hr Hd) as Hi.
  destruct (c_calls_ok _ _ _ Hi) as (A & B). split; [exact A|]. split; [exact B|].
  intros w. eapply c_worker_ids; eauto.
Qed.
Print Assumptions C18_cluster_calls_under_one_id.

Theorem C18_cluster_finished_run :
  forall new_id : nat -> Z, (forall k, new_id k <> 0) ->
  forall progs s, cprogs_ok progs -> c_reach new_id progs s -> c_deleted (fst s) = false ->
  c_all_done s ->
  (forall k, count_calls k (c_log (fst s)) = count_ops k (concat (map snd progs))) /\
  (concat (map snd progs) <> [] -> c_creates (fst s) = 1%nat).
Proof.
  intros new_id Hn progs s Hp Hr Hdel Hd. pose proof (c_reach_inv _ Hn _ _ Hp Hr Hdel) as Hi. split.
  - eapply c_all_done_counts; eauto.
  - eapply c_all_done_one_create; eauto.
Qed.
Print Assumptions C18_cluster_finished_run.

Theorem C18_cluster_no_deadlock :
  forall new_id : nat -> Z, (forall k, new_id k <> 0) ->
  forall progs s, cprogs_ok progs -> c_reach new_id progs s -> c_deleted (fst s) = false ->
  forall t th, nth_error (snd s) t = Some th -> c_finished th = false ->
  exists t' lb s', c_step new_id s t' = Some (lb, s').
Proof. intros new_id Hn progs s Hp Hr Hd t th. eapply c_progress, c_reach_inv; eauto. Qed.
Print Assumptions C18_cluster_no_deadlock.

Theorem C18_cluster_schedules_are_reachable :
  forall (new_id : nat -> Z) progs sched lbs s,
    c_run new_id (c_init progs) sched = Some (lbs, s) -> c_reach new_id progs s.
Proof. intros new_id progs sched lbs s. apply c_run_reach. constructor. Qed.
Print Assumptions C18_cluster_schedules_are_reachable.

(** domain restriction made explicit: a first write that starts after a
    finalise has cleaned up initiates a second upload *)
Theorem C18_cluster_late_first_write :
  exists lbs s, c_run std_id (c_init late_progs) late_sched = Some (lbs, s) /\
    c_deleted (fst s) = true /\ c_creates (fst s) = 2%nat.
Proof. do 2 eexists. split; [vm_compute; reflexivity|]. split; reflexivity. Qed.
Print Assumptions C18_cluster_late_first_write.

(** the shared variable survives between uploads to the same (bucket, key): whatever an earlier,
    abandoned upload left in it, [prep_client] resets it and the new upload starts from [c_init],
    so all the statements above apply to it ... *)
Theorem C18_cluster_new_upload_ignores_stale_variable :
  forall v0 progs, c_init_after v0 progs = c_init progs.
Proof. reflexivity. Qed.
Print Assumptions C18_cluster_new_upload_ignores_stale_variable.

(** ... whereas a [prep_client] that only binds the variable lets the new upload's workers pick
    the stale id: no initiation, the part uploaded under the abandoned upload's id *)
Theorem C18_cluster_prep_without_reset_refuted :
  exists lbs s, c_run std_id (c_init_var (c_prep_client_noreset (Some 7)) [(0%nat, [OWrite 1])])
                      (repeat 0%nat 6) = Some (lbs, s) /\
    c_all_done s /\ c_creates (fst s) = 0%nat /\ c_log (fst s) = [KUpload 1 7].
Proof.
  do 2 eexists. split; [vm_compute; reflexivity|]. split; [|split; reflexivity].
  intros th H. vm_compute in H. intuition (subst; reflexivity).
Qed.
Print Assumptions C18_cluster_prep_without_reset_refuted.

Example C18_cluster_example :
  exists lbs s, c_run std_id (c_init c_example_progs) c_example_sched = Some (lbs, s) /\
    c_deleted (fst s) = false /\ c_all_done s /\ c_creates (fst s) = 1%nat.
Proof.
  do 2 eexists. split; [vm_compute; reflexivity|]. split; [reflexivity|]. split; [|reflexivity].
  intros th H. vm_compute in H. intuition (subst; reflexivity).
Qed.

(** parts written (possibly rewritten) in any order, then [finalise] with the
    part list in ANY order [ps]: the destination is the concatenation in that
    order, no part file and no parts directory remain *)
Theorem C18_sink_writes_then_finalise :
  forall ws ps, ps <> [] -> NoDup ps -> (forall p, In p ps <-> In p (map fst ws)) ->
  sink_finalise false false (sink_writes ws) ps
  = Ok (mkFS (Some (concat (map (last_write ws) ps))) false []).
Proof.
  intros ws ps Hne Hnd Hkeys. rewrite <- sink_writes_finalised. apply sink_finalise_iff.
  repeat split; auto; try (rewrite sink_writes_keys; apply Hkeys).
  apply sink_writes_dir. destruct ps as [|p r]; [congruence|].
  intros ->. apply (Hkeys p). left; reflexivity.
Qed.
Print Assumptions C18_sink_writes_then_finalise.

(** from any state of the directory: if [finalise] returns, that is its result *)
Theorem C18_sink_finalise_result :
  forall f ps f', sink_finalise false false f ps = Ok f' ->
  f' = mkFS (Some (concat (map (get_nil (f_parts f)) ps))) false [].
Proof. intros f ps f' H. apply sink_finalise_iff in H. apply H. Qed.
Print Assumptions C18_sink_finalise_result.

Theorem C18_sink_finalise_succeeds :
  forall f ps, ps <> [] -> NoDup ps -> f_dir f = true ->
  (forall p, In p ps <-> In p (map fst (f_parts f))) ->
  sink_finalise false false f ps = Ok (finalised f ps).
Proof. intros f ps Hne Hnd Hdir Hkeys. apply sink_finalise_iff. repeat split; auto; apply Hkeys. Qed.
Print Assumptions C18_sink_finalise_succeeds.

(** error cases, so that the totalised model cannot make the above true vacuously *)
Theorem C18_sink_finalise_errors :
  (forall f, sink_finalise false false f [] = Err (EAssert 71)) /\
  (forall f ps p, In p ps -> ~ In p (map fst (f_parts f)) -> exists e, sink_finalise false false f ps = Err e) /\
  (forall f ps p, In p (map fst (f_parts f)) -> ~ In p ps -> exists e, sink_finalise false false f ps = Err e).
Proof.
  split; [reflexivity|].
  split; intros f ps p H1 H2; apply sink_finalise_err; intros H; apply H2, H, H1.
Qed.
Print Assumptions C18_sink_finalise_errors.

(** the code before the empty-part fix ([empty_fails = true]): an empty part after the first broke finalise *)
Theorem C18_sink_empty_part_old_refuted :
  exists ws ps, ps <> [] /\ NoDup ps /\ (forall p, In p ps <-> In p (map fst ws)) /\
    sink_finalise true false (sink_writes ws) ps = Err EValue.
Proof.
  exists [(1, [97]); (2, [])], [1; 2]. repeat split; try discriminate; try (simpl; tauto).
  repeat constructor; simpl; intuition congruence.
Qed.
Print Assumptions C18_sink_empty_part_old_refuted.

Example C18_sink_example :
  sink_finalise false false (sink_writes [(2, [98]); (1, [97; 97]); (3, []); (2, [99])]) [3; 2; 1]
  = Ok (mkFS (Some [99; 97; 97]) false []).
Proof. reflexivity. Qed.

Theorem C18_fs_limits_configured :
  forall l a b c d, NoDup (map fst l) ->
  configured l LkMinWrite 4096 a -> configured l LkMaxWrite (5 * 2 ^ 30) b ->
  configured l LkMinPart 1 c -> configured l LkMaxPart 10000 d ->
  fs_min_write_sz l = a /\ fs_max_write_sz l = b /\ fs_min_part l = c /\ fs_max_part l = d.
Proof. intros l a b c d Hnd Ha Hb Hc Hd. repeat split; apply lim_get_configured; auto. Qed.
Print Assumptions C18_fs_limits_configured.

Theorem C18_fs_limits_max_above_min :
  forall l a b c d, NoDup (map fst l) ->
  configured l LkMinWrite 4096 a -> configured l LkMaxWrite (5 * 2 ^ 30) b ->
  configured l LkMinPart 1 c -> configured l LkMaxPart 10000 d ->
  (a < b -> fs_min_write_sz l < fs_max_write_sz l) /\ (c < d -> fs_min_part l < fs_max_part l).
Proof.
  intros l a b c d Hnd Ha Hb Hc Hd.
  destruct (C18_fs_limits_configured l a b c d Hnd Ha Hb Hc Hd) as (-> & -> & -> & ->). auto.
Qed.
Print Assumptions C18_fs_limits_max_above_min.

Theorem C18_fs_limits_defaults :
  fs_min_write_sz [] = 4096 /\ fs_max_write_sz [] = 5 * 2 ^ 30 /\ fs_min_part [] = 1 /\ fs_max_part [] = 10000 /\
  fs_min_write_sz [] < fs_max_write_sz [] /\ fs_min_part [] < fs_max_part [].
Proof. vm_compute. repeat split; reflexivity. Qed.
Print Assumptions C18_fs_limits_defaults.

Theorem C18_s3_limits :
  s3_min_write_sz = 5242880 /\ s3_max_write_sz = 5368709120 /\ s3_min_part = 1 /\ s3_max_part = 10000 /\
  s3_min_write_sz < s3_max_write_sz /\ s3_min_part < s3_max_part.
Proof. vm_compute. repeat split; reflexivity. Qed.
Print Assumptions C18_s3_limits.

(** the accessors before fix 6596c49 *)
Theorem C18_fs_limits_old_refuted :
  exists l a b c d, NoDup (map fst l) /\
    configured l LkMinWrite 4096 a /\ configured l LkMaxWrite (5 * 2 ^ 30) b /\
    configured l LkMinPart 1 c /\ configured l LkMaxPart 10000 d /\ a < b /\ c < d /\
    fs_max_write_sz_old l <> b /\ ~ (fs_min_write_sz l < fs_max_write_sz_old l) /\
    fs_max_part_old l <> d /\ ~ (fs_min_part l < fs_max_part_old l).
Proof.
  exists [(LkMinWrite, 100); (LkMaxWrite, 200); (LkMinPart, 2); (LkMaxPart, 50)], 100, 200, 2, 50.
  unfold configured; simpl.
  repeat split; try (left; tauto); try lia; try (vm_compute; congruence).
  repeat constructor; simpl; intuition congruence.
Qed.
Print Assumptions C18_fs_limits_old_refuted.
