(** Property C09 — xarray geo-registration round-trips and survives array operations.

    The statements, proved from the lemmas of Proofs/XrCoordsProofs.v, each followed by
    [Print Assumptions].  The model (Model/XrCoords.v) follows
    odc/geo/_xr_interop.py (xr_coords, wrap_xr, _locate_geo_info, _xr_reproject_da/_ds),
    odc.geo.math.affine_from_axis / data_resolution_and_offset / resolution_from_affine and
    GeoBox.coordinates over exact rationals.  Vocabulary used below (all defined in the Model
    file): [wrap_xr tol box ntime nband nodata crs_coord_name user_attrs], [locate_geo_info]
    (what the [.odc] accessor computes), [run_history] over [OIsel dim slice] (positional
    slicing with any bounds and any non-zero step) and [OElem dims gm attrs] (any operation
    that keeps all coordinates and does not invent grid_mapping/crs attributes: arithmetic,
    astype, pickle, copy, transpose -- the xarray contract validated by the harness),
    [axis_idx d (iota n) h] = the composed index map of history [h] along dimension [d],
    [reproject_da]/[reproject_ds] = output assembly of the reprojection.  [repaired] selects
    the code after the four fixes made for this property; the [_unrepaired_..._refuted]
    theorems show what the code did before. *)
From Coq Require Import ZArith QArith List Bool String Lia.
From OG Require Import Base.Result Model.XrCoords Proofs.XrCoordsProofs.
Import ListNotations.
Open Scope string_scope.
Open Scope Z_scope.
Open Scope list_scope.

(** Axis-aligned GeoBox of any shape >= 1x1, any sign of the resolutions, with or without CRS, with
    optional time/band axes: the recovered GeoBox has the wrapped shape, CRS and matrix.  A
    single row/column needs the CRS coordinate (it carries the GeoTransform).  The matrix
    written to the labels has b = d = 0 (shear below the is_affine_st tolerance is dropped by
    the code). *)
Theorem C09_roundtrip_axis_aligned :
  forall tol (g : gbox) nt nb nd name user x0,
    is_affine_st tol (g_aff g) = true -> 1 <= g_ny g -> 1 <= g_nx g ->
    let t := g_aff g in
    let yd := fst (crs_dims (g_crs g)) in
    let xd := snd (crs_dims (g_crs g)) in
    name_ok name yd xd -> clean_attrs user ->
    ((2 <= g_ny g /\ 2 <= g_nx g) \/ (name <> None /\ g_crs g <> None)) ->
    wrap_xr tol (ABox g) nt nb nd name user = Ok x0 ->
    exists T,
      locate_geo_info repaired tol x0 =
        Ok (GeoState (Some (yd, xd)) (g_crs g) (Some T) (Some (ABox (GBox (g_ny g) (g_nx g) T (g_crs g))))) /\
      aff_eq T (Aff (fa t) 0 (fc t) 0 (fe t) (ff t)).
Proof.
  intros tol g nt nb nd name user x0 Hst Hny Hnx t yd xd Hname Hclean Hfb Hw.
  apply (locate_st_full tol t (g_crs g) name yd xd None x0); auto.
  eapply georef_weaken.
  exact (wrap_georef (xr_coords_st tol g name Hst Hname) Hw Hname Hclean
           ltac:(simpl; lia) ltac:(simpl; lia) (crs_coord_of_ok _ _ _ _)).
Qed.
Print Assumptions C09_roundtrip_axis_aligned.

(** Rotated / sheared GeoBox, any shape >= 1x1 (pixel-space labels + encoded transform).  The
    CRS is recovered through the CRS coordinate (without one nothing carries it). *)
Theorem C09_roundtrip_rotated :
  forall tol (g : gbox) nt nb nd name user x0,
    is_affine_st tol (g_aff g) = false -> 1 <= g_ny g -> 1 <= g_nx g ->
    let t := g_aff g in
    let yd := fst (crs_dims (g_crs g)) in
    let xd := snd (crs_dims (g_crs g)) in
    let c := match name with Some _ => g_crs g | None => None end in
    name_ok name yd xd -> clean_attrs user ->
    wrap_xr tol (ABox g) nt nb nd name user = Ok x0 ->
    exists T,
      locate_geo_info repaired tol x0 =
        Ok (GeoState (Some (yd, xd)) c (Some T) (Some (ABox (GBox (g_ny g) (g_nx g) T c)))) /\
      aff_eq T t.
Proof.
  intros tol g nt nb nd name user x0 Hst Hny Hnx t yd xd c Hname Hclean Hw.
  apply (locate_rot_full tol t (g_crs g) name yd xd (Some t) x0); auto.
  eapply georef_weaken.
  exact (wrap_georef (xr_coords_rot tol g name Hst Hname) Hw Hname Hclean
           ltac:(simpl; lia) ltac:(simpl; lia) (crs_coord_of_ok _ _ _ _)).
Qed.
Print Assumptions C09_roundtrip_rotated.

(** GCP based GeoBox with invertible own transform [a]: the recovered GCPGeoBox carries the
    same GCPs expressed in the pixel frame of the wrapped GeoBox ([gcps_of (a^-1) pts]) and the
    identity as its own transform, i.e. the same pixel -> GCP-frame map. *)
Theorem C09_roundtrip_gcp :
  forall tol ny nx a pts crs ai nt nb nd n user x0,
    aff_inv a = Some ai -> 1 <= ny -> 1 <= nx ->
    let yd := fst (crs_dims (Some crs)) in
    let xd := snd (crs_dims (Some crs)) in
    name_ok (Some n) yd xd -> clean_attrs user ->
    wrap_xr tol (AGcp ny nx a pts (Some crs)) nt nb nd (Some n) user = Ok x0 ->
    exists T,
      locate_geo_info repaired tol x0 =
        Ok (GeoState (Some (yd, xd)) (Some crs) (Some T) (Some (AGcp ny nx T (gcps_of ai pts) (Some crs)))) /\
      aff_eq T aff_id.
Proof.
  intros tol ny nx a pts crs ai nt nb nd n user x0 Hi Hny Hnx yd xd Hname Hclean Hw.
  apply (locate_gcp_full tol crs n (gcps_of ai pts) yd xd None None x0); auto.
  eapply georef_weaken.
  exact (wrap_georef (ccn := crs_coord_of (Some n) (Some crs) (Some (gcps_of ai pts)) None)
           (xr_coords_gcp tol ny nx a pts _ ai _ Hi Hname) Hw Hname Hclean
           ltac:(simpl; lia) ltac:(simpl; lia) (crs_coord_of_ok (Some n) (Some crs) (Some (gcps_of ai pts)) None)).
Qed.
Print Assumptions C09_roundtrip_gcp.

(** Every index a Python slice selects is a valid position: the operation algebra's basis. *)
Theorem C09_slice_selects_valid_positions :
  forall n s start step m,
    0 <= n -> slice_adjust n s = Ok (start, step, m) ->
    step <> 0 /\ 0 <= m /\ forall k, 0 <= k < m -> 0 <= start + k * step < n.
Proof. exact slice_adjust_spec. Qed.
Print Assumptions C09_slice_selects_valid_positions.

(** The composed index map of every history is an arithmetic progression of original indices. *)
Theorem C09_index_map_is_arithmetic :
  forall d n h idx, 0 <= n -> axis_idx d (iota n) h = Ok idx ->
    exists p q m, 0 <= m /\ idx = ap p q m /\ forall k, 0 <= k < m -> 0 <= p + q * k < n.
Proof. exact ap_of_history. Qed.
Print Assumptions C09_index_map_is_arithmetic.

(** Axis-aligned GeoBox, EVERY finite history [h] of positional slices (any bounds, positive
    and negative steps) and contract-respecting element-wise operations that leaves at least
    one row and one column (a single remaining row/column again needs the CRS coordinate): with
    [iy]/[ix] the composed index maps, the recovered GeoBox has the remaining shape and the CRS, its matrix
    is axis-aligned, the coordinate labels of the array are the labels of the original pixels
    [iy]/[ix], and the centre of remaining pixel (j, k) is mapped to the label -- the world
    location of the centre -- of original pixel (iy[j], ix[k]).  Moreover the matrix equals
    affine_from_axis of the current labels: resolution r*q and the matching offset for axes
    with >= 2 labels, the GeoTransform resolution for single-label axes. *)
Theorem C09_history_axis_aligned :
  forall tol (g : gbox) nt nb nd name user h x0 x iy ix,
    is_affine_st tol (g_aff g) = true -> 0 <= g_ny g -> 0 <= g_nx g ->
    let t := g_aff g in
    let yd := fst (crs_dims (g_crs g)) in
    let xd := snd (crs_dims (g_crs g)) in
    name_ok name yd xd -> clean_attrs user ->
    wrap_xr tol (ABox g) nt nb nd name user = Ok x0 ->
    run_history x0 h = Ok x ->
    axis_idx yd (iota (g_ny g)) h = Ok iy -> axis_idx xd (iota (g_nx g)) h = Ok ix ->
    1 <= zlen iy -> 1 <= zlen ix ->
    ((2 <= zlen iy /\ 2 <= zlen ix) \/ (name <> None /\ g_crs g <> None)) ->
    exists T,
      locate_geo_info repaired tol x =
        Ok (GeoState (Some (yd, xd)) (g_crs g) (Some T) (Some (ABox (GBox (zlen iy) (zlen ix) T (g_crs g))))) /\
      fb T == 0 /\ fd T == 0 /\
      (exists cy cx, lookup yd (x_coords x) = Some cy /\ lookup xd (x_coords x) = Some cx /\
                     co_vals cy = map (label (ff t) (fe t)) iy /\ co_vals cx = map (label (fc t) (fa t)) ix) /\
      (forall j k, 0 <= j < zlen iy -> 0 <= k < zlen ix ->
         fst (aff_apply T (inject_Z k + (1 # 2)) (inject_Z j + (1 # 2))) == label (fc t) (fa t) (nth (Z.to_nat k) ix 0) /\
         snd (aff_apply T (inject_Z k + (1 # 2)) (inject_Z j + (1 # 2))) == label (ff t) (fe t) (nth (Z.to_nat j) iy 0)) /\
      (2 <= zlen ix -> exists px qx, ix = ap px qx (zlen ix) /\ fa T == fa t * inject_Z qx /\
                                     fc T == fc t + fa t * inject_Z px + fa t / 2 - fa t * inject_Z qx / 2) /\
      (2 <= zlen iy -> exists py qy, iy = ap py qy (zlen iy) /\ fe T == fe t * inject_Z qy /\
                                     ff T == ff t + fe t * inject_Z py + fe t / 2 - fe t * inject_Z qy / 2) /\
      (zlen ix = 1 -> fa T == fa t) /\ (zlen iy = 1 -> fe T == fe t).
Proof.
  intros tol g nt nb nd name user h x0 x iy ix Hst Hny Hnx t yd xd Hname Hclean Hw Hh Hiy Hix Ly Lx Hfb.
  destruct (georef_history_ap Hny Hnx
              (wrap_georef (xr_coords_st tol g name Hst Hname)
                 Hw Hname Hclean Hny Hnx (crs_coord_of_ok _ _ _ _)) Hh Hiy Hix)
    as (px & qx & py & qy & Ex & Ey & G).
  destruct (locate_st tol t G Hst Ly Lx Hfb) as (T & E & F).
  destruct (grid_fit_tail Ex Ey F) as (B & D & Rest).
  destruct G as ([_ _ (_ & Gcy) (_ & Gcx) _] & _). rewrite <- Ey in Gcy. rewrite <- Ex in Gcx.
  exists T. split; [exact E|]. split; [exact B|]. split; [exact D|]. split; [|exact Rest].
  eexists _, _. split; [exact Gcy|]. split; [exact Gcx|]. split; reflexivity.
Qed.
Print Assumptions C09_history_axis_aligned.

(** [label tx rx i] IS the world x of the centre of pixel column [i] of an axis-aligned grid
    (b = d = 0), so the statement above is about world locations. *)
Theorem C09_label_is_pixel_centre :
  forall (t : aff) i j, fb t == 0 -> fd t == 0 ->
    fst (aff_apply t (inject_Z i + (1 # 2)) (inject_Z j + (1 # 2))) == label (fc t) (fa t) i /\
    snd (aff_apply t (inject_Z i + (1 # 2)) (inject_Z j + (1 # 2))) == label (ff t) (fe t) j.
Proof.
  intros t i j Hb Hd. unfold aff_apply, label; simpl. rewrite Hb, Hd. split; field.
Qed.
Print Assumptions C09_label_is_pixel_centre.

(** Rotated / sheared GeoBox, every history: the labels are pixel-space labels of the original
    pixels, the recovered matrix is (encoded transform) * (affine_from_axis of the labels) and
    maps the centre of remaining pixel (j, k) to the world location of the centre of original
    pixel (iy[j], ix[k]).  Neither a CRS coordinate nor a second row/column is needed (pixel-space labels
    fall back to a unit resolution); one row and one column must remain. *)
Theorem C09_history_rotated :
  forall tol (g : gbox) nt nb nd name user h x0 x iy ix,
    is_affine_st tol (g_aff g) = false -> 0 <= g_ny g -> 0 <= g_nx g ->
    let t := g_aff g in
    let yd := fst (crs_dims (g_crs g)) in
    let xd := snd (crs_dims (g_crs g)) in
    let c := match name with Some _ => g_crs g | None => None end in
    name_ok name yd xd -> clean_attrs user ->
    wrap_xr tol (ABox g) nt nb nd name user = Ok x0 ->
    run_history x0 h = Ok x ->
    axis_idx yd (iota (g_ny g)) h = Ok iy -> axis_idx xd (iota (g_nx g)) h = Ok ix ->
    1 <= zlen iy -> 1 <= zlen ix ->
    exists T,
      locate_geo_info repaired tol x =
        Ok (GeoState (Some (yd, xd)) c (Some (aff_mul t T)) (Some (ABox (GBox (zlen iy) (zlen ix) (aff_mul t T) c)))) /\
      fb T == 0 /\ fd T == 0 /\
      (exists cy cx, lookup yd (x_coords x) = Some cy /\ lookup xd (x_coords x) = Some cx /\
                     co_vals cy = map pix_label iy /\ co_vals cx = map pix_label ix /\ co_tr cx = Some t) /\
      (forall j k, 0 <= j < zlen iy -> 0 <= k < zlen ix ->
         fst (aff_apply T (inject_Z k + (1 # 2)) (inject_Z j + (1 # 2))) == pix_label (nth (Z.to_nat k) ix 0) /\
         snd (aff_apply T (inject_Z k + (1 # 2)) (inject_Z j + (1 # 2))) == pix_label (nth (Z.to_nat j) iy 0) /\
         fst (aff_apply (aff_mul t T) (inject_Z k + (1 # 2)) (inject_Z j + (1 # 2))) ==
           fst (aff_apply t (inject_Z (nth (Z.to_nat k) ix 0) + (1 # 2)) (inject_Z (nth (Z.to_nat j) iy 0) + (1 # 2))) /\
         snd (aff_apply (aff_mul t T) (inject_Z k + (1 # 2)) (inject_Z j + (1 # 2))) ==
           snd (aff_apply t (inject_Z (nth (Z.to_nat k) ix 0) + (1 # 2)) (inject_Z (nth (Z.to_nat j) iy 0) + (1 # 2)))) /\
      (2 <= zlen ix -> exists px qx, ix = ap px qx (zlen ix) /\ fa T == inject_Z qx /\
                                     fc T == inject_Z px + (1 # 2) - inject_Z qx / 2) /\
      (2 <= zlen iy -> exists py qy, iy = ap py qy (zlen iy) /\ fe T == inject_Z qy /\
                                     ff T == inject_Z py + (1 # 2) - inject_Z qy / 2) /\
      (zlen ix = 1 -> fa T == 1) /\ (zlen iy = 1 -> fe T == 1).
Proof.
  intros tol g nt nb nd name user h x0 x iy ix Hst Hny Hnx t yd xd c Hname Hclean Hw Hh Hiy Hix Ly Lx.
  destruct (georef_history_ap Hny Hnx
              (wrap_georef (xr_coords_rot tol g name Hst Hname)
                 Hw Hname Hclean Hny Hnx (crs_coord_of_ok _ _ _ _)) Hh Hiy Hix)
    as (px & qx & py & qy & Ex & Ey & G).
  destruct (locate_rot tol t G Ly Lx) as (T & E & F).
  destruct (pix_fit_tail Ex Ey F) as (B & D & C & Rest).
  destruct G as ([_ _ (_ & Gcy) (_ & Gcx) _] & _). rewrite <- Ey in Gcy. rewrite <- Ex in Gcx.
  exists T. split; [exact E|]. split; [exact B|]. split; [exact D|].
  split. { eexists _, _. split; [exact Gcy|]. split; [exact Gcx|]. repeat split; reflexivity. }
  split; [|exact Rest]. intros j k Hj Hk. destruct (C j k Hj Hk) as (Q1 & Q2).
  split; [exact Q1|]. split; [exact Q2|]. exact (aff_mul_centre t T _ _ _ _ Q1 Q2).
Qed.
Print Assumptions C09_history_rotated.

(** GCP based GeoBox, every history: the recovered GCPGeoBox keeps the GCPs and its own
    transform maps the centre of remaining pixel (j, k) to the centre of original pixel
    (iy[j], ix[k]) in the pixel frame the GCPs are expressed in. *)
Theorem C09_history_gcp :
  forall tol ny nx a pts crs ai nt nb nd n user h x0 x iy ix,
    aff_inv a = Some ai -> 0 <= ny -> 0 <= nx ->
    let yd := fst (crs_dims (Some crs)) in
    let xd := snd (crs_dims (Some crs)) in
    name_ok (Some n) yd xd -> clean_attrs user ->
    wrap_xr tol (AGcp ny nx a pts (Some crs)) nt nb nd (Some n) user = Ok x0 ->
    run_history x0 h = Ok x ->
    axis_idx yd (iota ny) h = Ok iy -> axis_idx xd (iota nx) h = Ok ix ->
    1 <= zlen iy -> 1 <= zlen ix ->
    exists T,
      locate_geo_info repaired tol x =
        Ok (GeoState (Some (yd, xd)) (Some crs) (Some T)
                     (Some (AGcp (zlen iy) (zlen ix) T (gcps_of ai pts) (Some crs)))) /\
      fb T == 0 /\ fd T == 0 /\
      (forall j k, 0 <= j < zlen iy -> 0 <= k < zlen ix ->
         fst (aff_apply T (inject_Z k + (1 # 2)) (inject_Z j + (1 # 2))) == inject_Z (nth (Z.to_nat k) ix 0) + (1 # 2) /\
         snd (aff_apply T (inject_Z k + (1 # 2)) (inject_Z j + (1 # 2))) == inject_Z (nth (Z.to_nat j) iy 0) + (1 # 2)) /\
      (2 <= zlen ix -> exists px qx, ix = ap px qx (zlen ix) /\ fa T == inject_Z qx /\
                                     fc T == inject_Z px + (1 # 2) - inject_Z qx / 2) /\
      (2 <= zlen iy -> exists py qy, iy = ap py qy (zlen iy) /\ fe T == inject_Z qy /\
                                     ff T == inject_Z py + (1 # 2) - inject_Z qy / 2) /\
      (zlen ix = 1 -> fa T == 1) /\ (zlen iy = 1 -> fe T == 1).
Proof.
  intros tol ny nx a pts crs ai nt nb nd n user h x0 x iy ix Hi Hny Hnx yd xd Hname Hclean Hw Hh Hiy Hix Ly Lx.
  destruct (georef_history_ap Hny Hnx
              (wrap_georef (ccn := crs_coord_of (Some n) (Some crs) (Some (gcps_of ai pts)) None)
                 (xr_coords_gcp tol ny nx a pts _ ai _ Hi Hname) Hw Hname Hclean Hny Hnx
                 (crs_coord_of_ok (Some n) (Some crs) (Some (gcps_of ai pts)) None)) Hh Hiy Hix)
    as (px & qx & py & qy & Ex & Ey & G).
  destruct (locate_gcp tol G Ly Lx) as (T & E & F).
  exists T. split; [exact E|]. exact (pix_fit_tail Ex Ey F).
Qed.
Print Assumptions C09_history_gcp.

(** attribute pruning: nothing in SPATIAL_ATTRIBUTES survives, everything else except the
    nodata bookkeeping is untouched *)
Theorem C09_output_attrs_pruned :
  forall itol (a : attrs) nd k,
    (In k SPATIAL_ATTRIBUTES -> lookup k (out_attrs itol a nd) = None) /\
    (~ In k SPATIAL_ATTRIBUTES -> k <> "nodata" -> k <> "_FillValue" ->
     lookup k (out_attrs itol a nd) = lookup k a).
Proof. intros; split; [apply out_attrs_spatial | apply out_attrs_other]. Qed.
Print Assumptions C09_output_attrs_pruned.

(** the coordinates of the output: the destination's win, all others are kept source
    coordinates (not CRS coordinates, not along the spatial dimensions) *)
Theorem C09_output_coords :
  forall (kept new : coords) k,
    lookup k (aupdate kept new) = match lookup k (rev new) with Some c => Some c | None => lookup k kept end.
Proof. intros. apply lookup_aupdate. Qed.
Print Assumptions C09_output_coords.

(** DataArray, axis-aligned destination: for ANY geo-registered source (spatial dims adjacent,
    other dims not named like spatial ones) the output carries exactly xr_coords(dst) on top of
    the kept coordinates, pruned attributes, grid_mapping = spatial_ref, and its recovered
    GeoBox is the destination: shape, CRS and matrix. *)
Theorem C09_reproject_dataarray :
  forall tol itol src (dst : gbox) nd st sb syd sxd pre post n1 n2 cd,
    locate_geo_info repaired tol src = Ok st -> gs_box st = Some sb -> box_crs sb <> None ->
    gs_sdims st = Some (syd, sxd) ->
    x_dims src = pre ++ [(syd, n1); (sxd, n2)] ++ post ->
    syd <> sxd -> other_dims_ok (pre ++ post) syd sxd ->
    g_crs dst = Some cd -> 1 <= g_ny dst -> 1 <= g_nx dst ->
    is_affine_st tol (g_aff dst) = true ->
    exists new out T,
      xr_coords tol (ABox dst) (Some DEFAULT_CRS_COORD_NAME) = Ok new /\
      reproject_da repaired tol itol src dst nd = Ok out /\
      x_coords out = aupdate (filter (fun nc => keep_pred syd sxd (snd nc)) (x_coords src)) new /\
      x_attrs out = out_attrs itol (x_attrs src) nd /\
      x_gm out = Some DEFAULT_CRS_COORD_NAME /\
      x_dims out = pre ++ [(fst (crs_dims (g_crs dst)), g_ny dst); (snd (crs_dims (g_crs dst)), g_nx dst)] ++ post /\
      locate_geo_info repaired tol out =
        Ok (GeoState (Some (fst (crs_dims (g_crs dst)), snd (crs_dims (g_crs dst)))) (Some cd) (Some T)
                     (Some (ABox (GBox (g_ny dst) (g_nx dst) T (Some cd))))) /\
      aff_eq T (Aff (fa (g_aff dst)) 0 (fc (g_aff dst)) 0 (fe (g_aff dst)) (ff (g_aff dst))).
Proof.
  intros tol itol src [ny nx t crs] nd st sb syd sxd pre post n1 n2 cd Hl Hb Hc Hsd Hd Hne Hok Hcrs Hny Hnx Hst.
  simpl in *. subst crs.
  pose proof (xr_coords_st tol (GBox ny nx t (Some cd)) _ Hst (name_ok_default _)) as Hnew.
  destruct (reproject_da_out tol itol src (GBox ny nx t (Some cd)) nd
              Hl Hb Hc Hsd Hd Hne Hok ltac:(simpl; lia) ltac:(simpl; lia) Hnew eq_refl eq_refl)
    as (out & Eo & E1 & E2 & E3 & E4 & G).
  destruct (locate_st_full tol t (Some cd) (Some DEFAULT_CRS_COORD_NAME) _ _ None out ny nx G Hst Hny Hnx)
    as (T & E & A); [right; split; discriminate|].
  eexists _, out, T. eauto 10.
Qed.
Print Assumptions C09_reproject_dataarray.

(** ... and for a rotated / sheared destination *)
Theorem C09_reproject_dataarray_rotated_dst :
  forall tol itol src (dst : gbox) nd st sb syd sxd pre post n1 n2 cd,
    locate_geo_info repaired tol src = Ok st -> gs_box st = Some sb -> box_crs sb <> None ->
    gs_sdims st = Some (syd, sxd) ->
    x_dims src = pre ++ [(syd, n1); (sxd, n2)] ++ post ->
    syd <> sxd -> other_dims_ok (pre ++ post) syd sxd ->
    g_crs dst = Some cd -> 1 <= g_ny dst -> 1 <= g_nx dst ->
    is_affine_st tol (g_aff dst) = false ->
    exists new out T,
      xr_coords tol (ABox dst) (Some DEFAULT_CRS_COORD_NAME) = Ok new /\
      reproject_da repaired tol itol src dst nd = Ok out /\
      x_coords out = aupdate (filter (fun nc => keep_pred syd sxd (snd nc)) (x_coords src)) new /\
      x_attrs out = out_attrs itol (x_attrs src) nd /\
      x_gm out = Some DEFAULT_CRS_COORD_NAME /\
      x_dims out = pre ++ [(fst (crs_dims (g_crs dst)), g_ny dst); (snd (crs_dims (g_crs dst)), g_nx dst)] ++ post /\
      locate_geo_info repaired tol out =
        Ok (GeoState (Some (fst (crs_dims (g_crs dst)), snd (crs_dims (g_crs dst)))) (Some cd) (Some T)
                     (Some (ABox (GBox (g_ny dst) (g_nx dst) T (Some cd))))) /\
      aff_eq T (g_aff dst).
Proof.
  intros tol itol src [ny nx t crs] nd st sb syd sxd pre post n1 n2 cd Hl Hb Hc Hsd Hd Hne Hok Hcrs Hny Hnx Hst.
  simpl in *. subst crs.
  pose proof (xr_coords_rot tol (GBox ny nx t (Some cd)) _ Hst (name_ok_default _)) as Hnew.
  destruct (reproject_da_out tol itol src (GBox ny nx t (Some cd)) nd
              Hl Hb Hc Hsd Hd Hne Hok ltac:(simpl; lia) ltac:(simpl; lia) Hnew eq_refl eq_refl)
    as (out & Eo & E1 & E2 & E3 & E4 & G).
  destruct (locate_rot_full tol t (Some cd) (Some DEFAULT_CRS_COORD_NAME) _ _ (Some t) out ny nx G Hny Hnx)
    as (T & E & A).
  eexists _, out, T. eauto 10.
Qed.
Print Assumptions C09_reproject_dataarray_rotated_dst.

(** Dataset (repaired code): the Dataset's attributes are pruned and, for EVERY geo-registered
    data variable, its attributes are pruned and the DataArray [out[name]] recovers the
    destination GeoBox with its CRS.  Variables passed through without a geobox must not bring
    coordinates/dimensions named like the destination's (xarray would then merge/align them). *)
Theorem C09_reproject_dataset :
  forall tol itol src (dst : gbox) nd out cd,
    reproject_ds repaired tol itol src dst nd = Ok out ->
    NoDup (map fst (x_vars src)) ->
    g_crs dst = Some cd -> 1 <= g_ny dst -> 1 <= g_nx dst ->
    is_affine_st tol (g_aff dst) = true ->
    let t := g_aff dst in
    let dy := fst (crs_dims (g_crs dst)) in
    let dx := snd (crs_dims (g_crs dst)) in
    (forall nv, In nv (x_vars src) ->
       (exists syd sxd pre post, geo_var tol src nv syd sxd pre post) \/ plain_var tol itol src dst nd nv) ->
    (forall k, In k SPATIAL_ATTRIBUTES -> lookup k (x_attrs out) = None) /\
    (forall k, ~ In k SPATIAL_ATTRIBUTES -> lookup k (x_attrs out) = lookup k (x_attrs src)) /\
    forall nv syd sxd pre post,
      In nv (x_vars src) -> geo_var tol src nv syd sxd pre post ->
      exists v view T,
        lookup (fst nv) (x_vars out) = Some v /\
        (forall k, In k SPATIAL_ATTRIBUTES -> lookup k (v_attrs v) = None) /\
        ds_getitem out (fst nv) = Some view /\
        locate_geo_info repaired tol view =
          Ok (GeoState (Some (dy, dx)) (Some cd) (Some T) (Some (ABox (GBox (g_ny dst) (g_nx dst) T (Some cd))))) /\
        aff_eq T (Aff (fa t) 0 (fc t) 0 (fe t) (ff t)).
Proof.
  intros tol itol src [ny nx t crs] nd out cd Hrun Hnd Hcrs Hny Hnx Hst t' dy dx Hall. simpl in *. subst crs.
  destruct (reproject_ds_out tol itol src (GBox ny nx t (Some cd)) nd out _ _ _ _ _ _ _
              (xr_coords_st tol (GBox ny nx t (Some cd)) _ Hst (name_ok_default _)) eq_refl
              ltac:(simpl; lia) ltac:(simpl; lia) Hrun Hnd Hall) as (A1 & A2 & Hv).
  split; [exact A1|]. split; [exact A2|]. intros nv syd sxd pre post Hin Hg.
  destruct (Hv nv syd sxd pre post Hin Hg) as (v & view & E2 & E3 & E5 & G).
  destruct (locate_st_full tol t (Some cd) (Some DEFAULT_CRS_COORD_NAME) _ _ None view ny nx G Hst Hny Hnx)
    as (T & E & A); [right; split; discriminate|].
  exists v, view, T. auto.
Qed.
Print Assumptions C09_reproject_dataset.

Theorem C09_reproject_dataset_rotated_dst :
  forall tol itol src (dst : gbox) nd out cd,
    reproject_ds repaired tol itol src dst nd = Ok out ->
    NoDup (map fst (x_vars src)) ->
    g_crs dst = Some cd -> 1 <= g_ny dst -> 1 <= g_nx dst ->
    is_affine_st tol (g_aff dst) = false ->
    let t := g_aff dst in
    let dy := fst (crs_dims (g_crs dst)) in
    let dx := snd (crs_dims (g_crs dst)) in
    (forall nv, In nv (x_vars src) ->
       (exists syd sxd pre post, geo_var tol src nv syd sxd pre post) \/ plain_var tol itol src dst nd nv) ->
    (forall k, In k SPATIAL_ATTRIBUTES -> lookup k (x_attrs out) = None) /\
    (forall k, ~ In k SPATIAL_ATTRIBUTES -> lookup k (x_attrs out) = lookup k (x_attrs src)) /\
    forall nv syd sxd pre post,
      In nv (x_vars src) -> geo_var tol src nv syd sxd pre post ->
      exists v view T,
        lookup (fst nv) (x_vars out) = Some v /\
        (forall k, In k SPATIAL_ATTRIBUTES -> lookup k (v_attrs v) = None) /\
        ds_getitem out (fst nv) = Some view /\
        locate_geo_info repaired tol view =
          Ok (GeoState (Some (dy, dx)) (Some cd) (Some T) (Some (ABox (GBox (g_ny dst) (g_nx dst) T (Some cd))))) /\
        aff_eq T t.
Proof.
  intros tol itol src [ny nx t crs] nd out cd Hrun Hnd Hcrs Hny Hnx Hst t' dy dx Hall. simpl in *. subst crs.
  destruct (reproject_ds_out tol itol src (GBox ny nx t (Some cd)) nd out _ _ _ _ _ _ _
              (xr_coords_rot tol (GBox ny nx t (Some cd)) _ Hst (name_ok_default _)) eq_refl
              ltac:(simpl; lia) ltac:(simpl; lia) Hrun Hnd Hall) as (A1 & A2 & Hv).
  split; [exact A1|]. split; [exact A2|]. intros nv syd sxd pre post Hin Hg.
  destruct (Hv nv syd sxd pre post Hin Hg) as (v & view & E2 & E3 & E5 & G).
  destruct (locate_rot_full tol t (Some cd) (Some DEFAULT_CRS_COORD_NAME) _ _ (Some t) view ny nx G Hny Hnx)
    as (T & E & A).
  exists v, view, T. auto.
Qed.
Print Assumptions C09_reproject_dataset_rotated_dst.

Definition ex_tol : Q := 1 # 10000000000.
Definition ex_itol : Q := 1 # 1000000.
Definition c4326 := Crs 4326 true.
Definition c3857 := Crs 3857 false.
Definition ex_g := GBox 4 5 (Aff 2 0 10 0 (-4) 20) (Some c3857).
Definition ex_hist : list op :=
  [OIsel "y" (PySlice None None (Some (-1)));          (* reverse the rows *)
   OElem [("time", 2); ("y", 4); ("x", 5)] None [];    (* arithmetic: attrs and encoding dropped *)
   OIsel "x" (PySlice (Some 1) None (Some 2));         (* every second column from 1 *)
   OIsel "time" (PySlice (Some 0) (Some 1) None)].

(** hypotheses of the history theorem are satisfiable and the conclusion is what one expects:
    rows reversed (resolution +4 from the far edge), columns strided (resolution 4) *)
Example C09_history_example :
  exists x0 x,
    wrap_xr ex_tol (ABox ex_g) (Some 2) None (Some 255%Q) (Some "spatial_ref") [("foo", VStr "bar")] = Ok x0 /\
    run_history x0 ex_hist = Ok x /\
    axis_idx "y" (iota 4) ex_hist = Ok [3; 2; 1; 0] /\ axis_idx "x" (iota 5) ex_hist = Ok [1; 3] /\
    (exists st g', locate_geo_info repaired ex_tol x = Ok st /\ gs_box st = Some (ABox g') /\
                   gbox_eqb g' (GBox 4 2 (Aff 4 0 11 0 4 4) (Some c3857)) = true).
Proof.
  eexists _, _. split; [vm_compute; reflexivity|]. split; [vm_compute; reflexivity|].
  split; [vm_compute; reflexivity|]. split; [vm_compute; reflexivity|].
  eexists _, _. split; [vm_compute; reflexivity|]. split; [reflexivity | vm_compute; reflexivity].
Qed.

Example C09_name_ok_example : name_ok (Some "spatial_ref") "y" "x" /\ clean_attrs [("foo", VStr "bar")].
Proof. split; [repeat split; discriminate | repeat split; reflexivity]. Qed.

(** a source DataArray and a Dataset built from it, reprojected with the repaired code *)
Definition ex_src_g := GBox 2 3 (Aff 1 0 10 0 (-1) 20) (Some c4326).
Definition ex_da : xobj :=
  match wrap_xr ex_tol (ABox ex_src_g) None None None (Some "spatial_ref") [("crs", VCrs c4326)] with
  | Ok x => x | Err _ => XObj false [] None [] [] []
  end.
Definition ex_ds : xobj :=
  XObj true (x_dims ex_da) None [("crs", VCrs c4326); ("title", VStr "t")] (x_coords ex_da)
       [("a", XVar ["latitude"; "longitude"] (x_attrs ex_da) (x_gm ex_da))].
Definition ex_dst := GBox 2 2 (Aff 65536 0 1000000 0 (-65536) 2000000) (Some c3857).

Example C09_reproject_example :
  exists out view st,
    reproject_ds repaired ex_tol ex_itol ex_ds ex_dst None = Ok out /\
    lookup "crs" (x_attrs out) = None /\ lookup "title" (x_attrs out) = Some (VStr "t") /\
    ds_getitem out "a" = Some view /\ lookup "crs" (x_attrs view) = None /\
    locate_geo_info repaired ex_tol view = Ok st /\ gs_crs st = Some c3857 /\
    (exists g', gs_box st = Some (ABox g') /\ gbox_eqb g' ex_dst = true) /\
    geo_var ex_tol ex_ds ("a", XVar ["latitude"; "longitude"] (x_attrs ex_da) (x_gm ex_da))
            "latitude" "longitude" [] [].
Proof.
  eexists _, _, _. split; [vm_compute; reflexivity|]. split; [reflexivity|]. split; [reflexivity|].
  split; [vm_compute; reflexivity|]. split; [reflexivity|]. split; [vm_compute; reflexivity|].
  split; [reflexivity|]. split.
  - eexists. split; [reflexivity | vm_compute; reflexivity].
  - split; [|split; [vm_compute; reflexivity | split; [discriminate | intros dn []]]].
    eexists _, _, _, _, _. split; [vm_compute; reflexivity|]. split; [vm_compute; reflexivity|].
    split; [reflexivity|]. split; [discriminate|]. split; reflexivity.
Qed.

(** F9.  Dataset.map of the installed xarray copies the source attributes back: the
    reprojected Dataset keeps the stale [crs] attributes and its variable reports the SOURCE
    CRS (the spatial_ref coordinate got the source's attributes back). *)
Theorem C09_unrepaired_dataset_map_refuted :
  exists src dst out v view st,
    g_crs dst = Some c3857 /\
    reproject_ds (Fixes false true true true) ex_tol ex_itol src dst None = Ok out /\
    lookup "crs" (x_attrs out) = Some (VCrs c4326) /\
    lookup "a" (x_vars out) = Some v /\ lookup "crs" (v_attrs v) = Some (VCrs c4326) /\
    ds_getitem out "a" = Some view /\
    locate_geo_info repaired ex_tol view = Ok st /\ gs_crs st = Some c4326.
Proof.
  exists ex_ds, ex_dst. eexists _, _, _, _.
  split; [reflexivity|]. split; [vm_compute; reflexivity|]. split; [reflexivity|].
  split; [reflexivity|]. split; [reflexivity|]. split; [vm_compute; reflexivity|].
  split; [vm_compute; reflexivity | reflexivity].
Qed.
Print Assumptions C09_unrepaired_dataset_map_refuted.

(** A rotated GeoBox with a single row: the one-label pixel-space axis fell back to the WORLD
    resolution of the GeoTransform (5) instead of one pixel per label. *)
Theorem C09_unrepaired_rotated_single_row_refuted :
  exists (g : gbox) x0 st g',
    is_affine_st ex_tol (g_aff g) = false /\ g_ny g = 1 /\
    wrap_xr ex_tol (ABox g) None None None (Some "spatial_ref") [] = Ok x0 /\
    locate_geo_info (Fixes true false true true) ex_tol x0 = Ok st /\ gs_box st = Some (ABox g') /\
    aff_eqb (g_aff g') (Aff 3 (-20) 108 4 15 194) = true /\ aff_eqb (g_aff g') (g_aff g) = false.
Proof.
  exists (GBox 1 5 (Aff 3 (-4) 100 4 3 200) (Some c3857)). eexists _, _, _.
  split; [reflexivity|]. split; [reflexivity|]. split; [vm_compute; reflexivity|].
  split; [vm_compute; reflexivity|]. split; [reflexivity|]. split; vm_compute; reflexivity.
Qed.
Print Assumptions C09_unrepaired_rotated_single_row_refuted.

(** A GCP based array sliced to one row (row 3, columns 2..4): without a GeoTransform to fall
    back to the transform was dropped, the recovered GCPGeoBox starts at pixel (0, 0). *)
Theorem C09_unrepaired_gcp_single_row_refuted :
  exists b x0 x st,
    wrap_xr ex_tol b None None None (Some "spatial_ref") [] = Ok x0 /\
    run_history x0 [OIsel "y" (PySlice (Some 3) (Some 4) None); OIsel "x" (PySlice (Some 2) (Some 5) None)] = Ok x /\
    axis_idx "y" (iota 8) [OIsel "y" (PySlice (Some 3) (Some 4) None); OIsel "x" (PySlice (Some 2) (Some 5) None)] = Ok [3] /\
    axis_idx "x" (iota 10) [OIsel "y" (PySlice (Some 3) (Some 4) None); OIsel "x" (PySlice (Some 2) (Some 5) None)] = Ok [2; 3; 4] /\
    locate_geo_info (Fixes true true false true) ex_tol x = Ok st /\ gs_transform st = None /\
    (exists pts c, gs_box st = Some (AGcp 1 3 aff_id pts c)).
Proof.
  exists (AGcp 8 10 aff_id [(0, 0, 100, 200); (10, 0, 120, 200); (0, 8, 100, 160); (10, 8, 120, 160); (5, 4, 110, 180)]%Q (Some c3857)).
  eexists _, _, _.
  split; [vm_compute; reflexivity|]. split; [vm_compute; reflexivity|].
  split; [vm_compute; reflexivity|]. split; [vm_compute; reflexivity|].
  split; [vm_compute; reflexivity|]. split; [reflexivity|]. eexists _, _. reflexivity.
Qed.
Print Assumptions C09_unrepaired_gcp_single_row_refuted.

(** Before repair 2e3019e a variable that does not span the Dataset's spatial dimensions -- here a
    (time, band) table without coordinates, which inherits the scalar CRS coordinate -- was taken
    for a raster (relaxed spatial dims = its last two dimensions, transform = the GeoTransform),
    warped, and came back with dimensions (y, x).  The repaired code passes it through. *)
Definition ex_ds_table : xobj :=
  XObj true (x_dims ex_da ++ [("time", 2); ("band", 3)]) None [] (x_coords ex_da)
       [("a", XVar ["latitude"; "longitude"] (x_attrs ex_da) (x_gm ex_da));
        ("w", XVar ["time"; "band"] [] None)].

Theorem C09_unrepaired_nonspatial_variable_warped_refuted :
  exists out v out' v',
    reproject_ds (Fixes true true true false) ex_tol ex_itol ex_ds_table ex_dst None = Ok out /\
    lookup "w" (x_vars out) = Some v /\ v_dims v = ["y"; "x"] /\
    reproject_ds repaired ex_tol ex_itol ex_ds_table ex_dst None = Ok out' /\
    lookup "w" (x_vars out') = Some v' /\ v_dims v' = ["time"; "band"].
Proof.
  eexists _, _, _, _.
  split; [vm_compute; reflexivity|]. split; [reflexivity|]. split; [reflexivity|].
  split; [vm_compute; reflexivity|]. split; reflexivity.
Qed.
Print Assumptions C09_unrepaired_nonspatial_variable_warped_refuted.
