(** Property C08 — a GeoBox built from a region covers it and is snapped as
    requested (GeoBox.from_bbox / from_geopolygon / zoom_to(resolution=)).
    Each statement follows in a few lines from the lemmas of Proofs/ and is
    followed by [Print Assumptions].  Floats are exact rationals [Q].

    A result is [((ny, nx), A)]: shape and affine [A = (a b c; d e f)].  For one
    axis, [grid_lo rs tx n] / [grid_hi rs tx n] are the low / high end of the
    [n] pixels of signed size [rs] that start at [tx], and
    [axis_spec x0 x1 rs o tol tx n] (Proofs/FromBboxProofs.v, unfolded in
    [C08_axis_spec_meaning]) says: at least one pixel; covers [x0, x1] except at
    most [tol] pixel per side; exceeds it by at most one pixel on the low side
    and (1 + tol) pixel on the high side (strictly less for a non-degenerate
    interval; less than one pixel when the interval is at least a pixel long
    and tol < 1);
    and [tx] sits at (integer + o) pixels from the origin, or — floating, [o =
    None] — exactly on the region's edge. *)
From Coq Require Import ZArith QArith Qabs List Bool.
From OG Require Import Base.Result Model.MathH Model.FromBbox Model.FromBboxCases (* cases: only so that the check's build closure keeps them fresh *)
  Proofs.FromBboxProofs.
Import ListNotations.
Open Scope Q_scope.

(** the per-axis statement, spelled out *)
Theorem C08_axis_spec_meaning :
  forall x0 x1 rs o tol tx nx,
    axis_spec x0 x1 rs o tol tx nx <->
    ((1 <= nx)%Z /\
     grid_hi rs tx nx - grid_lo rs tx nx == inject_Z nx * Qabs rs /\
     grid_lo rs tx nx <= x0 + tol * Qabs rs /\
     x1 - tol * Qabs rs <= grid_hi rs tx nx /\
     x0 - grid_lo rs tx nx <= Qabs rs /\
     grid_hi rs tx nx - x1 <= (1 + tol) * Qabs rs /\
     (x0 < x1 -> x0 - grid_lo rs tx nx < Qabs rs /\ grid_hi rs tx nx - x1 < (1 + tol) * Qabs rs) /\
     (Qabs rs <= x1 - x0 -> tol < 1 -> grid_hi rs tx nx - x1 < Qabs rs) /\
     match o with
     | Some o => exists k : Z, tx == (inject_Z k + o) * Qabs rs
     | None => tx == (if Qltb 0 rs then x0 else x1)
     end).
Proof. intros. apply iff_refl. Qed.
Print Assumptions C08_axis_spec_meaning.

(** which snapping each anchor / tight combination selects *)
Theorem C08_anchor_table :
  forall tight anchor,
    (tight = true -> snap_of tight anchor = None) /\
    (tight = false ->
     match anchor with
     | AnDefault | AnEdge => snap_of tight anchor = Some (0, 0)
     | AnCenter => snap_of tight anchor = Some (1#2, 1#2)
     | AnFloating => snap_of tight anchor = None
     | AnXY x y => snap_of tight anchor = Some (x, y)
     | AnNum a => exists sx sy, snap_of tight anchor = Some (sx, sy) /\ sx == a /\ sy == a
     end).
Proof. exact snap_of_table. Qed.
Print Assumptions C08_anchor_table.

(** ** resolution-driven: for every box, every non-zero resolution of either
    sign per axis, every anchor in [0,1) per axis or floating, every tol >= 0:
    the pixel size is exactly the requested one, no rotation, and both axes
    satisfy [axis_spec] *)
Theorem C08_from_bbox_resolution :
  forall (b : bbox) (tight : bool) (shape : shape_in) (rr : some_res) (anchor : anchor_in) (tol : Q),
    match shape with ShScalar _ => False | _ => True end ->
    ~ fst (res_xy rr) == 0 -> ~ snd (res_xy rr) == 0 ->
    bl b <= br b -> bb b <= bt b -> 0 <= tol ->
    match snap_of tight anchor with
    | None => True
    | Some (sx, sy) => (0 <= sx /\ sx < 1) /\ (0 <= sy /\ sy < 1)
    end ->
    exists nx ny offx offy A,
      from_bbox b tight shape (Some rr) anchor tol = Ok ((ny, nx), A) /\
      aff_eq A (mkAff (fst (res_xy rr)) 0 offx 0 (snd (res_xy rr)) offy) /\
      axis_spec (bl b) (br b) (fst (res_xy rr)) (option_map fst (snap_of tight anchor)) tol offx nx /\
      axis_spec (bb b) (bt b) (snd (res_xy rr)) (option_map snd (snap_of tight anchor)) tol offy ny.
Proof. exact from_bbox_resolution. Qed.
Print Assumptions C08_from_bbox_resolution.

(** ... and the pixel count is minimal (0 <= tol <= 1/2): per axis, a snapped grid
    cannot start one pixel later nor (with >= 2 pixels) end one pixel earlier and
    still cover the box up to [tol] pixel; a floating grid with >= 2 pixels cannot
    drop its last pixel *)
Theorem C08_from_bbox_resolution_minimal :
  forall (b : bbox) (tight : bool) (shape : shape_in) (rr : some_res) (anchor : anchor_in) (tol : Q) ny nx A,
    match shape with ShScalar _ => False | _ => True end ->
    ~ fst (res_xy rr) == 0 -> ~ snd (res_xy rr) == 0 -> 0 <= tol -> tol <= 1#2 ->
    from_bbox b tight shape (Some rr) anchor tol = Ok ((ny, nx), A) ->
    let minimal x0 x1 rs (o : option Q) tx (n : Z) :=
      match o with
      | Some _ =>
          x0 + tol * Qabs rs <= grid_lo rs tx n + Qabs rs /\
          ((2 <= n)%Z -> grid_lo rs tx n + inject_Z n * Qabs rs - Qabs rs <= x1 - tol * Qabs rs)
      | None => (2 <= n)%Z -> (inject_Z n - 1) * Qabs rs <= x1 - x0 - tol * Qabs rs
      end in
    minimal (bl b) (br b) (fst (res_xy rr)) (option_map fst (snap_of tight anchor)) (ac A) nx /\
    minimal (bb b) (bt b) (snd (res_xy rr)) (option_map snd (snap_of tight anchor)) (af A) ny.
Proof. exact from_bbox_resolution_minimal. Qed.
Print Assumptions C08_from_bbox_resolution_minimal.

(** ** shape-driven: exactly the requested shape, pixel size = span / shape,
    no displacement when floating, displacement below one pixel and edges on the
    anchor when snapping *)
Theorem C08_from_bbox_shape :
  forall (b : bbox) (tight : bool) (ny nx : Z) (anchor : anchor_in) (tol : Q),
    (1 <= nx)%Z -> (1 <= ny)%Z -> bl b < br b -> bb b < bt b -> 0 <= tol -> tol < 1 ->
    match snap_of tight anchor with
    | None => True
    | Some (sx, sy) => (0 <= sx /\ sx < 1) /\ (0 <= sy /\ sy < 1)
    end ->
    exists A,
      from_bbox b tight (ShYX ny nx) None anchor tol = Ok ((ny, nx), A) /\
      aa A == span_x b / inject_Z nx /\ ae A == - (span_y b / inject_Z ny) /\ ab A == 0 /\ ad A == 0 /\
      inject_Z nx * aa A == span_x b /\ inject_Z ny * - ae A == span_y b /\
      match snap_of tight anchor with
      | None => ac A == bl b /\ af A == bt b
      | Some (sx, sy) =>
          Qabs (ac A - bl b) < aa A /\ Qabs (af A - bt b) < - ae A /\
          (exists k : Z, ac A == (inject_Z k + sx) * aa A) /\
          (exists k : Z, af A == (inject_Z k + sy) * - ae A)
      end.
Proof.
  intros b tight ny nx anchor tol Hnx Hny Hx Hy Ht _. exact (from_bbox_shape b tight ny nx anchor tol Hnx Hny Hx Hy Ht).
Qed.
Print Assumptions C08_from_bbox_shape.

(** a single number as shape: square pixels of size (longest span)/n, then the
    resolution-driven construction; with snapping off the longest side gets
    exactly n pixels *)
Theorem C08_from_bbox_int_shape :
  forall (b : bbox) (tight : bool) (n : Q) (resolution : option some_res) (anchor : anchor_in) (tol : Q),
    ~ span_y b == 0 -> ~ n == 0 ->
    from_bbox b tight (ShScalar n) resolution anchor tol =
    from_bbox b tight ShNone
              (Some (RScalar ((if Qltb 1 (span_x b / span_y b) then span_x b else span_y b) / n))) anchor tol.
Proof. exact from_bbox_int_shape. Qed.
Print Assumptions C08_from_bbox_int_shape.

Theorem C08_from_bbox_int_shape_tight :
  forall (b : bbox) (m : Z) (resolution : option some_res) (anchor : anchor_in) (tol : Q),
    (1 <= m)%Z -> bl b < br b -> bb b < bt b -> 0 <= tol ->
    exists nx ny A, from_bbox b true (ShScalar (inject_Z m)) resolution anchor tol = Ok ((ny, nx), A) /\
                    (if Qltb 1 (span_x b / span_y b) then nx = m else ny = m) /\
                    ae A == - aa A /\ (1 <= nx)%Z /\ (1 <= ny)%Z.
Proof. exact from_bbox_int_shape_tight. Qed.
Print Assumptions C08_from_bbox_int_shape_tight.

Theorem C08_from_bbox_needs_shape_or_resolution :
  forall b tight anchor tol, from_bbox b tight ShNone None anchor tol = Err EValue.
Proof. reflexivity. Qed.
Print Assumptions C08_from_bbox_needs_shape_or_resolution.

(** ** polygon variant: the bounding box of the vertices contains every vertex,
    and from_geopolygon is from_bbox on it; the legacy [align] (CRS units)
    places pixel edges at [align + k*|res|] *)
Theorem C08_polygon_bbox_contains_vertices :
  forall (p0 : Q * Q) (pts : list (Q * Q)) (p : Q * Q),
    In p (p0 :: pts) ->
    let B := bbox_of_points p0 pts in
    bl B <= fst p /\ fst p <= br B /\ bb B <= snd p /\ snd p <= bt B.
Proof. exact bbox_of_points_contains. Qed.
Print Assumptions C08_polygon_bbox_contains_vertices.

Theorem C08_from_geopolygon_is_from_bbox :
  forall b resolution shape tight anchor tol,
    from_geopolygon_bbox b resolution None shape tight anchor tol = from_bbox b tight shape resolution anchor tol /\
    from_geopolygon_bbox b resolution (Some (0, 0)) shape tight anchor tol = from_bbox b tight shape resolution AnEdge tol.
Proof. intros; split; reflexivity. Qed.
Print Assumptions C08_from_geopolygon_is_from_bbox.

Theorem C08_from_geopolygon_align :
  forall (b : bbox) (rr : some_res) (ax ay : Q) (shape : shape_in) (tol : Q) (anchor : anchor_in),
    match shape with ShScalar _ => False | _ => True end ->
    ~ fst (res_xy rr) == 0 -> ~ snd (res_xy rr) == 0 ->
    ~ (ax == 0 /\ ay == 0) ->
    0 <= ax -> ax < Qabs (fst (res_xy rr)) -> 0 <= ay -> ay < Qabs (snd (res_xy rr)) ->
    bl b <= br b -> bb b <= bt b -> 0 <= tol ->
    exists nx ny offx offy A,
      from_geopolygon_bbox b (Some rr) (Some (ax, ay)) shape false anchor tol = Ok ((ny, nx), A) /\
      aff_eq A (mkAff (fst (res_xy rr)) 0 offx 0 (snd (res_xy rr)) offy) /\
      axis_spec (bl b) (br b) (fst (res_xy rr)) (Some (ax / Qabs (fst (res_xy rr)))) tol offx nx /\
      axis_spec (bb b) (bt b) (snd (res_xy rr)) (Some (ay / Qabs (snd (res_xy rr)))) tol offy ny /\
      (exists k : Z, offx == inject_Z k * Qabs (fst (res_xy rr)) + ax) /\
      (exists k : Z, offy == inject_Z k * Qabs (snd (res_xy rr)) + ay).
Proof. exact from_geopolygon_align. Qed.
Print Assumptions C08_from_geopolygon_align.

(** ** zoom_to(resolution=): same region (bounding box of the four corners of
    the source grid, any affine), new pixel size exactly as requested, floating *)
Theorem C08_zoom_to_resolution :
  forall (g : gbox) (rr : some_res) (tol : Q),
    ~ fst (res_xy rr) == 0 -> ~ snd (res_xy rr) == 0 -> 0 <= tol ->
    let B := bbox_from_transform (fst g) (snd g) in
    exists nx ny offx offy A,
      zoom_to_resolution g rr tol = Ok ((ny, nx), A) /\
      aff_eq A (mkAff (fst (res_xy rr)) 0 offx 0 (snd (res_xy rr)) offy) /\
      axis_spec (bl B) (br B) (fst (res_xy rr)) None tol offx nx /\
      axis_spec (bb B) (bt B) (snd (res_xy rr)) None tol offy ny /\
      (let '(ny0, nx0) := fst g in
       forall p, In p [(0, 0); (inject_Z nx0, 0); (inject_Z nx0, inject_Z ny0); (0, inject_Z ny0)] ->
                 inside B (aff_apply (snd g) p)).
Proof. exact zoom_to_resolution_spec. Qed.
Print Assumptions C08_zoom_to_resolution.

(** ** Non-vacuity: concrete instances (evaluated, not assumed). *)
Example C08_ex_resolution :
  exists A, from_bbox (mkBBox (1#10) (-(5#2)) (101#10) (77#10)) false ShNone (Some (RXY 2 (-(3)))) AnCenter (1#100)
            = Ok ((5, 6)%Z, A) /\ aff_eq A (mkAff 2 0 (-(1)) 0 (-(3)) (21#2)).
Proof. eexists. split; [vm_compute; reflexivity|]. repeat split; reflexivity. Qed.
Example C08_ex_shape :
  exists A, from_bbox (mkBBox 0 0 10 5) true (ShYX 5 4) None AnDefault (1#100) = Ok ((5, 4)%Z, A) /\
            aff_eq A (mkAff (5#2) 0 0 0 (-(1)) 5).
Proof. eexists. split; [vm_compute; reflexivity|]. repeat split; reflexivity. Qed.
Example C08_ex_zoom :
  exists A, zoom_to_resolution ((4, 6)%Z, mkAff 10 0 100 0 (-(10)) 200) (RScalar 20) (1#100) = Ok ((2, 3)%Z, A) /\
            aff_eq A (mkAff 20 0 100 0 (-(20)) 200).
Proof. eexists. split; [vm_compute; reflexivity|]. repeat split; reflexivity. Qed.

(** Tie to the source: the definitions regenerated by tools/py2v from the current odc/geo/math.py (coq/Gen/MathGen.v, rewritten on every run) are the model (Model/MathH.v) the theorems above are stated on, up to the error kind. *)
From OG Require Proofs.MathGenEquivH.
Theorem C08_source_is_model : OG.Proofs.MathGenEquivH.math_source_is_model.
Proof. exact OG.Proofs.MathGenEquivH.math_source_is_model_holds. Qed.
Print Assumptions C08_source_is_model.
