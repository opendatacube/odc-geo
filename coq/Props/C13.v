(** Property C13 — chunked (dask) reprojection equals whole-array reprojection.
    Each theorem is a short step from the lemmas of Proofs/ChunkedWarpProofs.v and is followed
    by its [Print Assumptions]; the concrete instance at the end is evaluated here.

    Vocabulary (Model/ChunkedWarp.v).  A raster is a list of planes (leading/time axes
    flattened), a plane a function row -> column -> value.  [st], [dtl] are the tilings
    (chunkings) of source and destination; [d2s] is the dependency map returned by
    [GeoboxTiles.grid_intersect] (absent key = []).  [dask_chunk ... j] is the value of
    destination chunk [j] of the graph built by [_dask_rio_reproject]: a constant
    [np.full] block when [d2s j = []], otherwise the task [_do_chunked_reproject]
    (clip the source tiling to the listed tiles, assemble their blocks with fill, crop the
    source GeoBox to that window, warp plane by plane into the chunk's GeoBox).
    [dask_pixel] reads the assembled array; [rio_reproject] is the in-memory path.

    ORACLES (Section variables in Proofs, universally quantified here):
    - [warp] = [_rio_reproject] (rasterio/GDAL) with the contract [warp_contract]:
      nearest-neighbour LOCALITY between two grids sharing a CRS — pixel [d] of the output
      takes [sample (src[nn d])] when [nn d] (an arbitrary function from destination to
      source base-grid pixels) lies inside the source window given to the warp and GDAL's
      initial value [gdal_init] otherwise; cropping a GeoBox re-bases pixel coordinates
      (C02) and the previous content of the output array is irrelevant.
    - the tilings meet [tiling_ok] (tile boundaries start at 0 and do not decrease: the C04
      partition theorem); proved below for every chunk-size list.
    - the dependency map meets [deps_in_range] and [deps_complete] (the C12 theorem: every
      source tile holding a pixel that a destination tile reads is listed for it).
    - dask evaluates each graph node to the value of its pure task, whatever the order
      (the model of a chunk is a function of the source blocks only). *)
From Coq Require Import ZArith List Lia.
From OG Require Import Base.Result Base.Eqb Model.ChunkedWarp Model.ChunkedWarpCases Proofs.ChunkedWarpProofs.
Import ListNotations.
Open Scope Z_scope.

(** Fill decision table.  With [gdal_init] the value GDAL leaves in unwritten pixels, the
    repaired task chunks produce exactly [resolve_fill_value] (= the constant blocks) for
    EVERY destination nodata, source nodata and dtype ... *)
Theorem C13_fill_task_equals_constant :
  forall (dtype N V : Type) (is_float : dtype -> bool) (cast : dtype -> N -> V) (vnan vzero : dtype -> V) (nanN : N),
    (forall dt, is_float dt = true -> cast dt nanN = vnan dt) ->
    forall dn sn dt,
      gdal_init cast vzero (chunk_dst_nodata is_float nanN true dn sn dt) sn dt
      = resolve_fill_value is_float cast vnan vzero dn sn dt.
Proof. intros; apply chunk_fill_is_resolved; assumption. Qed.
Print Assumptions C13_fill_task_equals_constant.

(** ... and so does the in-memory path unless float data has a source nodata but no
    destination nodata (rio_reproject then prefers NaN).  [_xr_reproject_da] defaults the
    destination nodata from the source nodata, so the exception is unreachable there. *)
Theorem C13_fill_in_memory :
  forall (dtype N V : Type) (is_float : dtype -> bool) (cast : dtype -> N -> V) (vnan vzero : dtype -> V) (nanN : N),
    (forall dt, is_float dt = true -> cast dt nanN = vnan dt) ->
    forall dn sn dt, (dn <> None \/ sn = None \/ is_float dt = false) ->
      gdal_init cast vzero (rio_dst_nodata is_float nanN dn dt) sn dt
      = resolve_fill_value is_float cast vnan vzero dn sn dt.
Proof. intros; apply rio_fill_is_resolved; assumption. Qed.
Print Assumptions C13_fill_in_memory.

Theorem C13_xr_defaulting_excludes_exception :
  forall (dtype N : Type) (is_float : dtype -> bool) (dn kw attr : option N) (dt : dtype),
    snd (xr_nodata dn kw attr) <> None \/ fst (xr_nodata dn kw attr) = None \/ is_float dt = false.
Proof. intros; apply (xr_nodata_no_corner is_float). Qed.
Print Assumptions C13_xr_defaulting_excludes_exception.

(** Every chunking given by lists of non-negative chunk sizes is a partition: each coordinate
    inside the raster lies in exactly one tile, found by [locate]. *)
Theorem C13_chunk_lists_are_partitions :
  forall chy chx, (forall c, In c chy -> 0 <= c) -> (forall c, In c chx -> 0 <= c) ->
    tiling_ok (tiling_of chy chx).
Proof. exact tiling_of_ok. Qed.
Print Assumptions C13_chunk_lists_are_partitions.

Theorem C13_partition :
  forall n off, axis_ok n off -> forall y, 0 <= y < off n ->
    (0 <= locate off n y < n /\ off (locate off n y) <= y < off (locate off n y + 1)) /\
    (forall i, 0 <= i < n -> off i <= y < off (i + 1) -> i = locate off n y).
Proof.
  intros n off Hok y Hy. destruct (locate_spec n off y Hok Hy) as (R & L). split; [split; assumption|].
  intros i Hi Hiy. exact (axis_tile_unique n off i _ y Hok Hi R Hiy L).
Qed.
Print Assumptions C13_partition.

(** Main theorem, chunk by chunk: for every warp oracle meeting the locality contract, all
    tilings of source and destination, every dependency map that is in range and complete,
    any number of leading planes, every nodata/dtype combination outside the rio_reproject
    exception: each destination chunk — task or constant — evaluates without error to
    exactly the corresponding window of the in-memory result. *)
Theorem C13_chunk_equals_whole :
  forall (dtype N V : Type) (is_float : dtype -> bool) (cast : dtype -> N -> V) (vnan vzero : dtype -> V) (nanN : N),
    (forall dt, is_float dt = true -> cast dt nanN = vnan dt) ->
  forall (warp : @warp_t dtype N V) nn sample, warp_contract cast vzero warp nn sample ->
  forall st dtl, tiling_ok st -> tiling_ok dtl ->
  forall d2s, deps_in_range st d2s -> deps_complete nn st dtl d2s ->
  forall (src : list (plane V)) dn sn dt j,
    (dn <> None \/ sn = None \/ is_float dt = false) ->
    tile_in_range dtl j ->
    exists ps,
      dask_chunk is_float cast vnan vzero nanN warp true d2s st dtl src dn sn dt j = Ok ps /\
      length ps = length src /\
      forall k dflt y x, (k < length src)%nat ->
        0 <= y < vh (tile_view dtl j) -> 0 <= x < vw (tile_view dtl j) ->
        nth k ps dflt y x
        = nth k (rio_reproject is_float nanN warp st dtl src dn sn dt) dflt
              (y + offy dtl (fst j)) (x + offx dtl (snd j)).
Proof. intros; eapply chunk_equals_whole; eassumption. Qed.
Print Assumptions C13_chunk_equals_whole.

(** The assembled dask array equals the in-memory array at every plane and pixel. *)
Theorem C13_dask_equals_whole :
  forall (dtype N V : Type) (is_float : dtype -> bool) (cast : dtype -> N -> V) (vnan vzero : dtype -> V) (nanN : N),
    (forall dt, is_float dt = true -> cast dt nanN = vnan dt) ->
  forall (warp : @warp_t dtype N V) nn sample, warp_contract cast vzero warp nn sample ->
  forall st dtl, tiling_ok st -> tiling_ok dtl ->
  forall d2s, deps_in_range st d2s -> deps_complete nn st dtl d2s ->
  forall (src : list (plane V)) dn sn dt,
    (dn <> None \/ sn = None \/ is_float dt = false) ->
    forall k dflt y x, (k < length src)%nat ->
      0 <= y < offy dtl (nty dtl) -> 0 <= x < offx dtl (ntx dtl) ->
      dask_pixel is_float cast vnan vzero nanN warp true d2s st dtl src dn sn dt dflt k y x
      = Ok (nth k (rio_reproject is_float nanN warp st dtl src dn sn dt) dflt y x).
Proof. intros; eapply dask_equals_whole; eassumption. Qed.
Print Assumptions C13_dask_equals_whole.

(** The same at the level of [xr_reproject] (nodata defaulted from the keyword and the
    array attribute) and for chunkings given as arbitrary lists of non-negative chunk sizes:
    no restriction on nodata or dtype remains. *)
Theorem C13_xr_reproject_chunked_equals_whole :
  forall (dtype N V : Type) (is_float : dtype -> bool) (cast : dtype -> N -> V) (vnan vzero : dtype -> V) (nanN : N),
    (forall dt, is_float dt = true -> cast dt nanN = vnan dt) ->
  forall (warp : @warp_t dtype N V) nn sample, warp_contract cast vzero warp nn sample ->
  forall chy chx dchy dchx,
    (forall c, In c chy -> 0 <= c) -> (forall c, In c chx -> 0 <= c) ->
    (forall c, In c dchy -> 0 <= c) -> (forall c, In c dchx -> 0 <= c) ->
  let st := tiling_of chy chx in
  let dtl := tiling_of dchy dchx in
  forall d2s, deps_in_range st d2s -> deps_complete nn st dtl d2s ->
  forall (src : list (plane V)) dst_nodata kw_src_nodata attr_nodata dt,
  let sn := fst (xr_nodata dst_nodata kw_src_nodata attr_nodata) in
  let dn := snd (xr_nodata dst_nodata kw_src_nodata attr_nodata) in
    forall k dflt y x, (k < length src)%nat ->
      0 <= y < offy dtl (nty dtl) -> 0 <= x < offx dtl (ntx dtl) ->
      dask_pixel is_float cast vnan vzero nanN warp true d2s st dtl src dn sn dt dflt k y x
      = Ok (nth k (rio_reproject is_float nanN warp st dtl src dn sn dt) dflt y x).
Proof.
  intros. eapply dask_equals_whole; try eassumption; try (apply tiling_of_ok; assumption).
  apply (xr_nodata_no_corner is_float).
Qed.
Print Assumptions C13_xr_reproject_chunked_equals_whole.

(** Uniform fill: a destination pixel that no source pixel reaches ([nn] points outside
    the source) holds [resolve_fill_value dst_nodata src_nodata dtype] in a task chunk, and
    every pixel of a constant chunk holds it — for all nodata/dtype combinations and
    without assuming completeness of the dependency map. *)
Theorem C13_unreached_pixels_hold_fill :
  forall (dtype N V : Type) (is_float : dtype -> bool) (cast : dtype -> N -> V) (vnan vzero : dtype -> V) (nanN : N),
    (forall dt, is_float dt = true -> cast dt nanN = vnan dt) ->
  forall (warp : @warp_t dtype N V) nn sample, warp_contract cast vzero warp nn sample ->
  forall st dtl, tiling_ok st -> tiling_ok dtl ->
  forall d2s, deps_in_range st d2s ->
  forall (src : list (plane V)) dn sn dt j, tile_in_range dtl j ->
    exists ps,
      dask_chunk is_float cast vnan vzero nanN warp true d2s st dtl src dn sn dt j = Ok ps /\
      length ps = length src /\
      forall k dflt y x, (k < length src)%nat ->
        0 <= y < vh (tile_view dtl j) -> 0 <= x < vw (tile_view dtl j) ->
        (d2s j = [] \/ ~ in_source st (nn (y + offy dtl (fst j)) (x + offx dtl (snd j)))) ->
        nth k ps dflt y x = resolve_fill_value is_float cast vnan vzero dn sn dt.
Proof.
  intros dtype N V is_float cast vnan vzero nanN Hnan warp nn sample Hw st dtl Hst _ d2s Hr src dn sn dt j _.
  destruct (chunk_pixel is_float cast vnan vzero nanN Hnan warp nn sample Hw st dtl Hst d2s Hr src dn sn dt j)
    as (ps & E & Hl & Hp).
  exists ps. split; [exact E|]. split; [exact Hl|].
  intros k dflt y x Hk Hy Hx. apply (Hp k dflt y x Hk Hy Hx).
Qed.
Print Assumptions C13_unreached_pixels_hold_fill.

Theorem C13_in_memory_unreached_pixels_hold_fill :
  forall (dtype N V : Type) (is_float : dtype -> bool) (cast : dtype -> N -> V) (vnan vzero : dtype -> V) (nanN : N),
    (forall dt, is_float dt = true -> cast dt nanN = vnan dt) ->
  forall (warp : @warp_t dtype N V) nn sample, warp_contract cast vzero warp nn sample ->
  forall st dtl (src : list (plane V)) dn sn dt k dflt y x,
    (dn <> None \/ sn = None \/ is_float dt = false) ->
    (k < length src)%nat -> 0 <= y < offy dtl (nty dtl) -> 0 <= x < offx dtl (ntx dtl) ->
    ~ in_source st (nn y x) ->
    nth k (rio_reproject is_float nanN warp st dtl src dn sn dt) dflt y x
    = resolve_fill_value is_float cast vnan vzero dn sn dt.
Proof. intros; eapply whole_unreached_is_fill; eassumption. Qed.
Print Assumptions C13_in_memory_unreached_pixels_hold_fill.

(** Rasters that do not overlap: the computed array is all fill and no chunk fails
    (whatever the dependency map lists, as long as it is in range). *)
Theorem C13_disjoint_gives_all_fill :
  forall (dtype N V : Type) (is_float : dtype -> bool) (cast : dtype -> N -> V) (vnan vzero : dtype -> V) (nanN : N),
    (forall dt, is_float dt = true -> cast dt nanN = vnan dt) ->
  forall (warp : @warp_t dtype N V) nn sample, warp_contract cast vzero warp nn sample ->
  forall st dtl, tiling_ok st -> tiling_ok dtl ->
  forall d2s, deps_in_range st d2s ->
  forall (src : list (plane V)) dn sn dt,
    (forall y x, 0 <= y < offy dtl (nty dtl) -> 0 <= x < offx dtl (ntx dtl) -> ~ in_source st (nn y x)) ->
    forall k dflt y x, (k < length src)%nat ->
      0 <= y < offy dtl (nty dtl) -> 0 <= x < offx dtl (ntx dtl) ->
      dask_pixel is_float cast vnan vzero nanN warp true d2s st dtl src dn sn dt dflt k y x
      = Ok (resolve_fill_value is_float cast vnan vzero dn sn dt).
Proof. intros; eapply disjoint_all_fill; eassumption. Qed.
Print Assumptions C13_disjoint_gives_all_fill.

(** Non-vacuity and the F10 refutation share one concrete instance (the one used by the
    correspondence: values are integers or NaN): a 1x1 float32 source holding 5, a 1x2
    destination in a single chunk whose second pixel is not reached, no nodata. *)
Definition ex_nn : list (list (Z * Z)) := [[(0, 0); (-1, -1)]].
Definition ex_d2s : idx -> list idx := lookup [((0, 0), [(0, 0)])].
Definition ex_st := tiling_of [1] [1].
Definition ex_dtl := tiling_of [1] [2].
Definition ex_src : list (plane val) := [tab_plane [[VNum 5]]].

Lemma ex_contract : warp_contract cast_c vzero_c (warp_c ex_nn) (tab_nn ex_nn) sample_c.
Proof. unfold warp_contract; intros; reflexivity. Qed.

Lemma ex_in_range : deps_in_range ex_st ex_d2s.
Proof.
  unfold deps_in_range, ex_d2s, lookup; intros j i. simpl.
  destruct (zz_eqb (0, 0) j); simpl; [|intros []].
  intros [<- | []]. unfold tile_in_range; simpl; lia.
Qed.

Lemma ex_complete : deps_complete (tab_nn ex_nn) ex_st ex_dtl ex_d2s.
Proof.
  unfold deps_complete. intros [jy jx] y x (Hjy & Hjx) (Hy & Hx) Hin. simpl in *.
  assert (jy = 0) by lia. assert (jx = 0) by lia. subst. simpl in *.
  assert (y = 0) by (unfold offs in *; simpl in *; lia). subst.
  unfold offs in Hx; simpl in Hx.
  assert (Hx' : x = 0 \/ x = 1) by lia. destruct Hx' as [-> | ->].
  - exists (0, 0). split; [left; reflexivity|]. unfold in_tile; simpl. unfold offs; simpl. lia.
  - exfalso. unfold in_source in Hin. simpl in Hin. lia.
Qed.

Example C13_hypotheses_satisfiable :
  tiling_ok ex_st /\ tiling_ok ex_dtl /\ deps_in_range ex_st ex_d2s /\
  deps_complete (tab_nn ex_nn) ex_st ex_dtl ex_d2s /\
  warp_contract cast_c vzero_c (warp_c ex_nn) (tab_nn ex_nn) sample_c /\
  dask_pixel dt_is_float cast_c vnan_c vzero_c VNaN (warp_c ex_nn) true ex_d2s ex_st ex_dtl ex_src None None DF32
             (fun _ _ => VNum 0) 0 0 0 = Ok (VNum 5) /\
  dask_pixel dt_is_float cast_c vnan_c vzero_c VNaN (warp_c ex_nn) true ex_d2s ex_st ex_dtl ex_src None None DF32
             (fun _ _ => VNum 0) 0 0 1 = Ok VNaN /\
  nth 0 (rio_reproject dt_is_float VNaN (warp_c ex_nn) ex_st ex_dtl ex_src None None DF32) (fun _ _ => VNum 0) 0 1 = VNaN.
Proof.
  split; [apply tiling_of_ok; simpl; intros c [<- | []]; lia|].
  split; [apply tiling_of_ok; simpl; intros c [<- | []]; lia|].
  split; [exact ex_in_range|]. split; [exact ex_complete|]. split; [exact ex_contract|].
  repeat split; vm_compute; reflexivity.
Qed.

(** F10: the code before the repair handed [dst_nodata = None] to the warp.  On the
    instance above — all hypotheses of the main theorem hold — the unreached pixel of
    the task chunk holds 0 while the in-memory result and [resolve_fill_value] say NaN. *)
Theorem C13_unrepaired_float_fill_refuted :
  exists (nn : list (list (Z * Z))) (d2s : idx -> list idx) (st dtl : tiling) (src : list (plane val)) y x,
    tiling_ok st /\ tiling_ok dtl /\ deps_in_range st d2s /\ deps_complete (tab_nn nn) st dtl d2s /\
    warp_contract cast_c vzero_c (warp_c nn) (tab_nn nn) sample_c /\
    0 <= y < offy dtl (nty dtl) /\ 0 <= x < offx dtl (ntx dtl) /\
    dask_pixel dt_is_float cast_c vnan_c vzero_c VNaN (warp_c nn) false d2s st dtl src None None DF32
               (fun _ _ => VNum 0) 0 y x = Ok (VNum 0) /\
    nth 0 (rio_reproject dt_is_float VNaN (warp_c nn) st dtl src None None DF32) (fun _ _ => VNum 0) y x = VNaN /\
    resolve_fill_value dt_is_float cast_c vnan_c vzero_c None None DF32 = VNaN.
Proof.
  destruct C13_hypotheses_satisfiable as (Hs & Hd & Hr & Hc & Hw & _).
  exists ex_nn, ex_d2s, ex_st, ex_dtl, ex_src, 0, 1.
  split; [exact Hs|]. split; [exact Hd|]. split; [exact Hr|]. split; [exact Hc|]. split; [exact Hw|].
  repeat split; vm_compute; congruence.
Qed.
Print Assumptions C13_unrepaired_float_fill_refuted.
