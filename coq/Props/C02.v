(** Property C02 — GeoBox views agree with its pixel-to-world mapping.

    Statements, each derived in a few lines from the lemmas of Proofs/GeoBoxOpsProofs.v and
    followed by [Print Assumptions].  A GeoBox is [(g_ny, g_nx, g_A, g_crs)] (Model/GeoBoxOps.v);
    [pix2wld g p = apply (g_A g) p], floats are exact rationals, the CRS an
    opaque tag.  All theorems hold for ARBITRARY affines (mirrored, sheared,
    rotated, non-square) and all shapes unless a hypothesis says otherwise.

    Vocabulary (Proofs/GeoBoxOpsProofs.v):
      in_rect g p    : p lies in the pixel rectangle [0,nx] x [0,ny]
      footprint g w  : w is the image of a point of the pixel rectangle
      covers g g'    : footprint g is contained in footprint g'
      invertible g   : det (g_A g) <> 0
      same_tags g g' : g' has the shape and the CRS of g
      hull4 c1..c4 w : w is a convex combination of c1..c4 *)
From Coq Require Import ZArith QArith Qabs List Bool Lia.
From OG Require Import Base.Result Base.Eqb Base.ListSel Base.Affine Model.Roi Model.GeoBoxOps
  Model.GeoBoxOpsCases Proofs.GeoBoxOpsProofs.
Import ListNotations.
Open Scope Q_scope.

(** ** (0) the affine group (Base/Affine.v): composition, inverse, action *)
Theorem C02_affine_group :
  forall A B C : affine,
    aeq (amul (amul A B) C) (amul A (amul B C)) /\
    aeq (amul aid A) A /\ aeq (amul A aid) A /\
    (~ adet A == 0 -> aeq (amul A (ainv A)) aid /\ aeq (amul (ainv A) A) aid) /\
    adet (amul A B) == adet A * adet B /\
    (forall p, peq (apply (amul A B) p) (apply A (apply B p))).
Proof.
  intros A B C. split; [apply amul_assoc|]. split; [apply amul_id_l|]. split; [apply amul_id_r|].
  split; [intros H; split; [apply amul_inv_r | apply amul_inv_l]; exact H|].
  split; [apply adet_mul | intros p; apply apply_mul].
Qed.
Print Assumptions C02_affine_group.

(** ** (i) pix2wld and wld2pix are mutual inverses (invertible affine) *)
Theorem C02_pix2wld_wld2pix_inverse :
  forall g p, invertible g ->
    peq (wld2pix g (pix2wld g p)) p /\ peq (pix2wld g (wld2pix g p)) p.
Proof. exact roundtrip. Qed.
Print Assumptions C02_pix2wld_wld2pix_inverse.

(** ** (ii) footprint, bounding box, coordinates, resolution *)
(** the extent ring is the image of the rectangle's corners, in the code's order *)
Theorem C02_extent_is_image_of_corners :
  forall g, extent g =
    [pix2wld g (0, 0); pix2wld g (0, Zq (g_ny g)); pix2wld g (Zq (g_nx g), Zq (g_ny g));
     pix2wld g (Zq (g_nx g), 0); pix2wld g (0, 0)].
Proof. reflexivity. Qed.
Print Assumptions C02_extent_is_image_of_corners.

(** ... and the polygon they span (their convex hull) is exactly the image of the pixel
    rectangle (shape at least 1x1) *)
Theorem C02_footprint_is_hull_of_extent :
  forall g w, (1 <= g_nx g)%Z -> (1 <= g_ny g)%Z ->
    (footprint g w <->
     hull4 (pix2wld g (0, 0)) (pix2wld g (0, Zq (g_ny g))) (pix2wld g (Zq (g_nx g), Zq (g_ny g)))
           (pix2wld g (Zq (g_nx g), 0)) w).
Proof.
  intros g w Hx Hy; split; [apply footprint_in_hull; assumption | apply hull_in_footprint; lia].
Qed.
Print Assumptions C02_footprint_is_hull_of_extent.

(** bounding box = coordinate-wise min/max over ALL FOUR corner images (each side attained) *)
Theorem C02_boundingbox_minmax_of_four_corners :
  forall g l b r t, boundingbox g = (l, b, r, t) ->
    (forall c, In c (corner_images g) -> l <= fst c /\ fst c <= r /\ b <= snd c /\ snd c <= t) /\
    (exists c, In c (corner_images g) /\ l = fst c) /\
    (exists c, In c (corner_images g) /\ b = snd c) /\
    (exists c, In c (corner_images g) /\ r = fst c) /\
    (exists c, In c (corner_images g) /\ t = snd c).
Proof. intros g. apply (minmax_of_points (pix2wld g (0, 0)) (tl (corner_images g))). Qed.
Print Assumptions C02_boundingbox_minmax_of_four_corners.

(** ... hence it contains the image of every point of the pixel rectangle *)
Theorem C02_boundingbox_contains_footprint :
  forall g l b r t p, boundingbox g = (l, b, r, t) -> in_rect g p ->
    l <= fst (pix2wld g p) /\ fst (pix2wld g p) <= r /\ b <= snd (pix2wld g p) /\ snd (pix2wld g p) <= t.
Proof. exact boundingbox_contains. Qed.
Print Assumptions C02_boundingbox_contains_footprint.

(** axis-aligned grid: coordinate label i is the world coordinate of the centre of pixel i *)
Theorem C02_coordinates_are_pixel_centres :
  forall c g, 0 < tol_st c -> axis_aligned g ->
    exists xs ys, coordinates c g = Ok (xs, ys) /\
      length xs = Z.to_nat (g_nx g) /\ length ys = Z.to_nat (g_ny g) /\
      (forall i y, (0 <= i < g_nx g)%Z ->
         nth (Z.to_nat i) xs 0 == fst (pix2wld g (Zq i + (1 # 2), y))) /\
      (forall j x, (0 <= j < g_ny g)%Z ->
         nth (Z.to_nat j) ys 0 == snd (pix2wld g (x, Zq j + (1 # 2)))).
Proof. exact coordinates_labels. Qed.
Print Assumptions C02_coordinates_are_pixel_centres.

Theorem C02_coordinates_rejects_rotated :
  forall c g, is_affine_st c (g_A g) = false -> coordinates c g = Err EValue.
Proof. intros c g H. unfold coordinates. rewrite H. reflexivity. Qed.
Print Assumptions C02_coordinates_rejects_rotated.

(** resolution of an axis aligned grid is the world step of one pixel *)
Theorem C02_resolution_axis_aligned :
  forall c g, 0 < tol_st c -> axis_aligned g ->
    resolution c g = Ok (aa (g_A g), ae (g_A g)) /\
    (forall x y, peq (pix2wld g (x + 1, y)) (fst (pix2wld g (x, y)) + aa (g_A g), snd (pix2wld g (x, y)))) /\
    (forall x y, peq (pix2wld g (x, y + 1)) (fst (pix2wld g (x, y)), snd (pix2wld g (x, y)) + ae (g_A g))).
Proof.
  intros c g Ht [Hb Hd]. unfold resolution. rewrite (is_affine_st_true c _ Ht Hb Hd).
  split; [reflexivity|]. unfold pix2wld, apply, peq; simpl. split; intros x y.
  - rewrite Hd. split; ring.
  - rewrite Hb. split; ring.
Qed.
Print Assumptions C02_resolution_axis_aligned.

(** rotated / sheared grids, square root as a universally quantified variable:
    rx = |pixel x-step|, rx*ry = signed pixel area, sign(ry) = sign(det), and for
    orthogonal columns |ry| = |pixel y-step| *)
Theorem C02_resolution_rotated_root :
  forall A l, 0 < l -> l * l == aa A * aa A + ad A * ad A ->
    let '(rx, ry) := resolution_with_root A l in
    rx * rx == aa A * aa A + ad A * ad A /\ 0 < rx /\
    rx * ry == adet A /\
    (0 < ry <-> 0 < adet A) /\ (ry == 0 <-> adet A == 0) /\
    (aa A * ab A + ad A * ae A == 0 -> ry * ry == ab A * ab A + ae A * ae A).
Proof. exact resolution_root_spec. Qed.
Print Assumptions C02_resolution_rotated_root.

(** the executable model (exact square roots: all Pythagorean rotations) *)
Theorem C02_resolution_rotated_exact :
  forall c g rx ry, is_affine_st c (g_A g) = false -> resolution c g = Ok (rx, ry) ->
    rx * rx == aa (g_A g) * aa (g_A g) + ad (g_A g) * ad (g_A g) /\ 0 < rx /\
    rx * ry == adet (g_A g) /\ (0 < ry <-> 0 < adet (g_A g)) /\
    (aa (g_A g) * ab (g_A g) + ad (g_A g) * ae (g_A g) == 0 ->
       ry * ry == ab (g_A g) * ab (g_A g) + ae (g_A g) * ae (g_A g)).
Proof. exact resolution_rotated. Qed.
Print Assumptions C02_resolution_rotated_exact.

(** ** (iii) one contract per view operation: new pixel p lies at old pixel g(p) *)

(** indexing with a pair (rows, columns) of int / slice indices *)
Theorem C02_getitem_contract :
  forall g sy sx g', getitem g (RTup [sy; sx]) = Ok g' ->
    let '(y0, y1, _) := norm_bounds sy (g_ny g) in
    let '(x0, x1, _) := norm_bounds sx (g_nx g) in
    g_ny g' = (y1 - y0)%Z /\ g_nx g' = (x1 - x0)%Z /\ g_crs g' = g_crs g /\
    forall p, peq (pix2wld g' p) (pix2wld g (fst p + Zq x0, snd p + Zq y0)).
Proof. exact getitem_tup_contract. Qed.
Print Assumptions C02_getitem_contract.

(** a single int / slice indexes rows and keeps all columns; more than 2 indices is a ValueError *)
Theorem C02_getitem_forms :
  forall g,
    (forall i, getitem g (RInt i) = getitem g (RTup [SInt i; full_slice])) /\
    (forall a b st, getitem g (ROne a b st) = getitem g (RTup [SSl a b st; full_slice])) /\
    (forall l, (2 < Z.of_nat (length l))%Z -> getitem g (RTup l) = Err EValue).
Proof.
  intros g. split; [reflexivity|]. split; [reflexivity | apply getitem_bad_rank].
Qed.
Print Assumptions C02_getitem_forms.

(** [start, stop) used above are the elements numpy selects on that axis (C17 semantics), for
    every array Y on that axis; the view's size is their number when the slice is in range *)
Theorem C02_getitem_matches_array_indexing :
  forall (A : Type) (Y : list A),
    (forall a b st, step_supported st = true ->
       let '(s, e, _) := norm_bounds (SSl a b st) (len Y) in
       (0 <= s)%Z /\ (0 <= e)%Z /\ np_get Y (SSl a b st) = Some (sel Y s e) /\
       ((s <= e)%Z -> (e <= len Y)%Z -> len (sel Y s e) = (e - s)%Z)) /\
    (forall i, (- len Y <= i < len Y)%Z ->
       norm_bounds (SInt i) (len Y) = ((i mod len Y)%Z, (i mod len Y + 1)%Z, None) /\
       np_get Y (SInt i) = Some (sel Y (i mod len Y) (i mod len Y + 1)) /\
       len (sel Y (i mod len Y) (i mod len Y + 1)) = 1%Z).
Proof.
  intros A Y. split.
  - intros a b st H. exact (norm_bounds_selection Y a b st H).
  - intros i H. split; [apply norm_bounds_int; exact H | apply norm_bounds_int_selection; exact H].
Qed.
Print Assumptions C02_getitem_matches_array_indexing.

(** every valid int index, negative ones included (F18): one row, at row [i mod ny] *)
Theorem C02_getitem_int_index :
  forall g i, (0 <= g_nx g)%Z -> (- g_ny g <= i < g_ny g)%Z ->
    exists g', getitem g (RInt i) = Ok g' /\
      g_ny g' = 1%Z /\ g_nx g' = g_nx g /\ g_crs g' = g_crs g /\
      forall p, peq (pix2wld g' p) (pix2wld g (fst p, snd p + Zq (i mod g_ny g))).
Proof.
  intros g i Hx Hi. change (getitem g (RInt i)) with (getitem g (RTup [SInt i; full_slice])).
  rewrite getitem_tup_eq, (norm_bounds_int i _ Hi), (norm_bounds_full _ Hx).
  eexists; split; [reflexivity|]. cbn [g_ny g_nx g_crs].
  split; [apply Z.add_simpl_l|]. split; [apply Z.sub_0_r|]. split; [reflexivity|].
  intros p. apply view_at. rewrite apply_trans. split; [apply Qplus_0_r | reflexivity].
Qed.
Print Assumptions C02_getitem_int_index.

(** the code before the F18 repair (int i -> slice(i, i+1)) violated this: negative height *)
Theorem C02_F18_before_fix_refuted :
  exists g i g', (- g_ny g <= i < g_ny g)%Z /\ getitem_int_before_fix g i = Ok g' /\ (g_ny g' < 0)%Z.
Proof.
  exists (mkG 10 20 (mkA 1 0 0 0 (-1) 0) 0), (-1)%Z.
  eexists. split; [simpl; lia|]. split; [vm_compute; reflexivity|]. simpl. lia.
Qed.
Print Assumptions C02_F18_before_fix_refuted.

Theorem C02_center_pixel :
  forall g, (1 <= g_ny g)%Z -> (1 <= g_nx g)%Z ->
    exists g', center_pixel g = Ok g' /\
      g_ny g' = 1%Z /\ g_nx g' = 1%Z /\ g_crs g' = g_crs g /\
      (forall p, peq (pix2wld g' p) (pix2wld g (fst p + Zq (g_nx g / 2), snd p + Zq (g_ny g / 2)))) /\
      Zq (g_nx g / 2) <= Zq (g_nx g) * (1 # 2) <= Zq (g_nx g / 2) + 1 /\
      Zq (g_ny g / 2) <= Zq (g_ny g) * (1 # 2) <= Zq (g_ny g / 2) + 1.
Proof.
  intros g Hy Hx. unfold center_pixel.
  pose proof (half_index _ Hy) as Iy. pose proof (half_index _ Hx) as Ix.
  rewrite getitem_tup_eq, !norm_bounds_int, !Z.mod_small by lia.
  eexists; split; [reflexivity|]. cbn [g_ny g_nx g_crs].
  split; [apply Z.add_simpl_l|]. split; [apply Z.add_simpl_l|]. split; [reflexivity|].
  split; [intros p; apply view_at, apply_trans|]. split; apply half_bounds.
Qed.
Print Assumptions C02_center_pixel.

(** pixel-side ([gbox * T]) and world-side ([T * gbox]) composition *)
Theorem C02_mul_rmul :
  forall g T p,
    peq (pix2wld (gmul g T) p) (pix2wld g (apply T p)) /\ same_tags g (gmul g T) /\
    peq (pix2wld (grmul T g) p) (apply T (pix2wld g p)) /\ same_tags g (grmul T g).
Proof.
  intros g T p. split; [apply apply_mul|]. split; [repeat split|]. split; [apply apply_mul | repeat split].
Qed.
Print Assumptions C02_mul_rmul.

Theorem C02_translate_pix :
  forall g tx ty p,
    peq (pix2wld (translate_pix g tx ty) p) (pix2wld g (fst p + tx, snd p + ty)) /\
    same_tags g (translate_pix g tx ty).
Proof. intros g tx ty p. split; [apply translate_pix_at | repeat split]. Qed.
Print Assumptions C02_translate_pix.

Theorem C02_pad :
  forall g padx pady p,
    let py := fill pady padx in
    let g' := pad g padx pady in
    peq (pix2wld g' p) (pix2wld g (fst p - Zq padx, snd p - Zq py)) /\
    g_ny g' = (g_ny g + py * 2)%Z /\ g_nx g' = (g_nx g + padx * 2)%Z /\ g_crs g' = g_crs g.
Proof. exact pad_contract. Qed.
Print Assumptions C02_pad.

Theorem C02_pad_covers :
  forall g padx pady, (0 <= padx)%Z -> (0 <= fill pady padx)%Z -> covers g (pad g padx pady).
Proof. exact pad_covers. Qed.
Print Assumptions C02_pad_covers.

Theorem C02_pad_wh :
  forall g ax ay, (1 <= ax)%Z -> (1 <= fill ay ax)%Z ->
    let g' := pad_wh g ax ay in
    g_A g' = g_A g /\ g_crs g' = g_crs g /\
    (g_nx g <= g_nx g' < g_nx g + ax)%Z /\ (g_nx g' mod ax = 0)%Z /\
    (g_ny g <= g_ny g' < g_ny g + fill ay ax)%Z /\ (g_ny g' mod (fill ay ax) = 0)%Z /\
    covers g g'.
Proof. exact pad_wh_contract. Qed.
Print Assumptions C02_pad_wh.

Theorem C02_crop_expand :
  forall g ny nx,
    let g' := crop g ny nx in
    g_A g' = g_A g /\ g_ny g' = ny /\ g_nx g' = nx /\ g_crs g' = g_crs g /\
    (forall p, pix2wld g' p = pix2wld g p).
Proof. intros g ny nx. repeat split. Qed.
Print Assumptions C02_crop_expand.

Theorem C02_flips :
  forall g p,
    peq (pix2wld (flipx g) p) (pix2wld g (Zq (g_nx g) - fst p, snd p)) /\ same_tags g (flipx g) /\
    peq (pix2wld (flipy g) p) (pix2wld g (fst p, Zq (g_ny g) - snd p)) /\ same_tags g (flipy g) /\
    covers g (flipx g) /\ covers (flipx g) g /\ covers g (flipy g) /\ covers (flipy g) g /\
    aeq (g_A (flipx (flipx g))) (g_A g) /\ aeq (g_A (flipy (flipy g))) (g_A g).
Proof.
  intros g p. destruct (flipx_contract g p), (flipy_contract g p).
  destruct (flipx_involution g) as (? & ? & ?), (flipy_involution g) as (? & ? & ?). tauto.
Qed.
Print Assumptions C02_flips.

Theorem C02_neighbours :
  forall g p,
    peq (pix2wld (gleft g) p) (pix2wld g (fst p - Zq (g_nx g), snd p)) /\
    peq (pix2wld (gright g) p) (pix2wld g (fst p + Zq (g_nx g), snd p)) /\
    peq (pix2wld (gtop g) p) (pix2wld g (fst p, snd p - Zq (g_ny g))) /\
    peq (pix2wld (gbottom g) p) (pix2wld g (fst p, snd p + Zq (g_ny g))) /\
    same_tags g (gleft g) /\ same_tags g (gright g) /\ same_tags g (gtop g) /\ same_tags g (gbottom g).
Proof.
  intros g p. unfold gleft, gright, gtop, gbottom.
  split; [|split; [|split; [|split; [|repeat split]]]];
    rewrite translate_pix_at; apply pix2wld_Proper; split; cbn [fst snd]; rewrite ?Zq_opp; ring.
Qed.
Print Assumptions C02_neighbours.

Theorem C02_neighbours_share_an_edge :
  forall g t,
    peq (pix2wld (gleft g) (Zq (g_nx g), t)) (pix2wld g (0, t)) /\
    peq (pix2wld (gright g) (0, t)) (pix2wld g (Zq (g_nx g), t)) /\
    peq (pix2wld (gtop g) (t, Zq (g_ny g))) (pix2wld g (t, 0)) /\
    peq (pix2wld (gbottom g) (t, 0)) (pix2wld g (t, Zq (g_ny g))) /\
    aeq (g_A (gright (gleft g))) (g_A g) /\ aeq (g_A (gbottom (gtop g))) (g_A g).
Proof.
  intros g t. unfold gleft, gright, gtop, gbottom.
  split; [|split; [|split; [|split; [|split]]]].
  1-4: rewrite translate_pix_at; apply pix2wld_Proper; split; cbn [fst snd]; rewrite ?Zq_opp; ring.
  - apply translate_back; [cbn [translate_pix gmul g_nx]; rewrite Zq_opp; ring | ring].
  - apply translate_back; [ring | cbn [translate_pix gmul g_ny]; rewrite Zq_opp; ring].
Qed.
Print Assumptions C02_neighbours_share_an_edge.

(** rotation about the centre, for ANY pair (c, s): the centre stays, displacements from it are
    multiplied by the matrix [[c, -s], [s, c]] *)
Theorem C02_rotate :
  forall g c s p,
    let C := center_world g in
    let g' := rotate g c s in
    peq (pix2wld g' p)
        (fst C + (c * (fst (pix2wld g p) - fst C) - s * (snd (pix2wld g p) - snd C)),
         snd C + (s * (fst (pix2wld g p) - fst C) + c * (snd (pix2wld g p) - snd C))) /\
    peq (pix2wld g' (Zq (g_nx g) * (1 # 2), Zq (g_ny g) * (1 # 2))) C /\
    same_tags g g' /\
    adet (g_A g') == (c * c + s * s) * adet (g_A g).
Proof. exact rotate_contract. Qed.
Print Assumptions C02_rotate.

(** ... and for a genuine rotation (c^2 + s^2 = 1, e.g. every cos/sin pair) it is an isometry *)
Theorem C02_rotate_isometry :
  forall g c s p q, c * c + s * s == 1 ->
    dist2 (pix2wld (rotate g c s) p) (pix2wld (rotate g c s) q) == dist2 (pix2wld g p) (pix2wld g q).
Proof. exact rotate_isometry. Qed.
Print Assumptions C02_rotate_isometry.

Theorem C02_zoom_out :
  forall g f, 0 < f ->
    exists g', zoom_out g f = Ok g' /\
      g_ny g' = zoom_dim (g_ny g) f /\ g_nx g' = zoom_dim (g_nx g) f /\ g_crs g' = g_crs g /\
      (forall p, peq (pix2wld g' p) (pix2wld g (f * fst p, f * snd p))) /\
      covers g g'.
Proof. exact zoom_out_contract. Qed.
Print Assumptions C02_zoom_out.

(** the zoomed size is the smallest integer >= n/f (at least 1) *)
Theorem C02_zoom_out_size :
  forall n f, 0 < f ->
    (1 <= zoom_dim n f)%Z /\ Zq n / f <= Zq (zoom_dim n f) /\
    (Zq (zoom_dim n f) < Zq n / f + 1 \/ zoom_dim n f = 1%Z).
Proof.
  intros n f _. split; [apply zoom_dim_pos|]. split; [apply zoom_dim_ge | apply zoom_dim_tight].
Qed.
Print Assumptions C02_zoom_out_size.

Theorem C02_zoom_to_shape :
  forall g ny nx, (1 <= ny)%Z -> (1 <= nx)%Z ->
    exists g', zoom_to_shape g ny nx = Ok g' /\
      g_ny g' = ny /\ g_nx g' = nx /\ g_crs g' = g_crs g /\
      (forall p, peq (pix2wld g' p)
                     (pix2wld g (fst p * (Zq (g_nx g) / Zq nx), snd p * (Zq (g_ny g) / Zq ny)))) /\
      peq (pix2wld g' (Zq nx, Zq ny)) (pix2wld g (Zq (g_nx g), Zq (g_ny g))) /\
      ((0 <= g_ny g)%Z -> (0 <= g_nx g)%Z -> covers g' g) /\
      ((1 <= g_ny g)%Z -> (1 <= g_nx g)%Z -> covers g g').
Proof. exact zoom_to_shape_contract. Qed.
Print Assumptions C02_zoom_to_shape.

(** zoom_to(k): the longest side becomes k pixels *)
Theorem C02_zoom_to_number :
  forall g k, (1 <= k)%Z -> (1 <= Z.max (g_ny g) (g_nx g))%Z ->
    let f := Zq (Z.max (g_ny g) (g_nx g)) / Zq k in
    0 < f /\ zoom_to_n g (Zq k) = zoom_out g f /\
    exists g', zoom_to_n g (Zq k) = Ok g' /\ Z.max (g_ny g') (g_nx g') = k.
Proof. exact zoom_to_n_contract. Qed.
Print Assumptions C02_zoom_to_number.

(** zoom_to(resolution=(rx, ry)): axis aligned grid with exactly that resolution, anchored at the
    bounding box edge and reaching the opposite edge up to the snapping tolerance (in pixels) *)
Theorem C02_zoom_to_resolution :
  forall c g rx ry g' l b r t,
    0 <= tol_snap c -> boundingbox g = (l, b, r, t) -> zoom_to_res c g rx ry = Ok g' ->
    g_crs g' = g_crs g /\ (1 <= g_nx g')%Z /\ (1 <= g_ny g')%Z /\
    aa (g_A g') == rx /\ ab (g_A g') == 0 /\ ad (g_A g') == 0 /\ ae (g_A g') == ry /\
    ~ rx == 0 /\ ~ ry == 0 /\
    (forall y, (0 < rx -> fst (pix2wld g' (0, y)) == l /\
                           r - tol_snap c * rx <= fst (pix2wld g' (Zq (g_nx g'), y))) /\
               (rx < 0 -> fst (pix2wld g' (0, y)) == r /\
                           fst (pix2wld g' (Zq (g_nx g'), y)) <= l + tol_snap c * (- rx))) /\
    (forall x, (0 < ry -> snd (pix2wld g' (x, 0)) == b /\
                           t - tol_snap c * ry <= snd (pix2wld g' (x, Zq (g_ny g')))) /\
               (ry < 0 -> snd (pix2wld g' (x, 0)) == t /\
                           snd (pix2wld g' (x, Zq (g_ny g'))) <= b + tol_snap c * (- ry))).
Proof. exact zoom_to_res_contract. Qed.
Print Assumptions C02_zoom_to_resolution.

Theorem C02_scaled_down_geobox :
  forall g s, (1 < s)%Z ->
    exists g', scaled_down_geobox g s = Ok g' /\
      g_ny g' = scaled_dim (g_ny g) s /\ g_nx g' = scaled_dim (g_nx g) s /\ g_crs g' = g_crs g /\
      (forall p, peq (pix2wld g' p) (pix2wld g (Zq s * fst p, Zq s * snd p))) /\
      ((0 <= g_ny g)%Z -> (0 <= g_nx g)%Z -> covers g g').
Proof. exact scaled_down_contract. Qed.
Print Assumptions C02_scaled_down_geobox.

Theorem C02_scaled_down_size :
  forall n s, (1 < s)%Z -> (0 <= n)%Z ->
    (n <= s * scaled_dim n s < n + s)%Z /\ (0 <= scaled_dim n s)%Z.
Proof. exact scaled_dim_spec. Qed.
Print Assumptions C02_scaled_down_size.

(** buffered: bx, by pixels are added on every side, bx the smallest integer with
    bx*|rx| >= xbuff - 0.1*|rx|; covering for non-negative buffers *)
Theorem C02_buffered :
  forall c g xb yb g', buffered c g xb yb = Ok g' ->
    let ybv := match yb with None => xb | Some v => v end in
    exists rx ry, resolution c g = Ok (rx, ry) /\ ~ rx == 0 /\ ~ ry == 0 /\
      let bx := round_to_res c xb rx in
      let by_ := round_to_res c ybv ry in
      g_ny g' = (g_ny g + 2 * by_)%Z /\ g_nx g' = (g_nx g + 2 * bx)%Z /\ g_crs g' = g_crs g /\
      (forall p, peq (pix2wld g' p) (pix2wld g (fst p - Zq bx, snd p - Zq by_))) /\
      xb - tenth c * Qabs rx <= Zq bx * Qabs rx /\ (Zq bx - 1) * Qabs rx < xb - tenth c * Qabs rx /\
      ybv - tenth c * Qabs ry <= Zq by_ * Qabs ry /\ (Zq by_ - 1) * Qabs ry < ybv - tenth c * Qabs ry /\
      (0 <= xb -> 0 <= ybv -> tenth c < 1 -> covers g g').
Proof.
  intros c g xb yb g' H. cbv zeta. destruct (buffered_is_pad c g xb yb g' H) as (rx & ry & Er & Hrx & Hry & ->).
  set (ybv := match yb with None => xb | Some v => v end).
  exists rx, ry. split; [exact Er|]. split; [exact Hrx|]. split; [exact Hry|].
  split; [apply Z.add_cancel_l, Z.mul_comm|]. split; [apply Z.add_cancel_l, Z.mul_comm|].
  split; [reflexivity|]. split; [intros p; apply pad_contract|].
  split; [apply round_to_res_spec, Hrx|]. split; [apply round_to_res_spec, Hrx|].
  split; [apply round_to_res_spec, Hry|]. split; [apply round_to_res_spec, Hry|].
  intros Hxb Hyb Ht. apply pad_covers; apply round_to_res_nonneg; assumption.
Qed.
Print Assumptions C02_buffered.

(** ** (iv) GCP based geoboxes: the polynomial fit p2w / w2p is an oracle (any function
    respecting equality of points); their views compose it with the crop / zoom affine *)
Theorem C02_gcp_contracts_transfer :
  forall (p2w : pt -> pt), (forall p q, peq p q -> peq (p2w p) (p2w q)) ->
  forall g g' (gm : pt -> pt),
    (forall p, peq (pix2wld g' p) (pix2wld g (gm p))) ->
    forall p, peq (gcp_pix2wld p2w g' p) (gcp_pix2wld p2w g (gm p)).
Proof. exact gcp_transfer. Qed.
Print Assumptions C02_gcp_contracts_transfer.

Theorem C02_gcp_getitem_pad_zoom :
  forall (p2w : pt -> pt), (forall p q, peq p q -> peq (p2w p) (p2w q)) ->
    (forall g sy sx g', getitem g (RTup [sy; sx]) = Ok g' ->
       let '(y0, y1, _) := norm_bounds sy (g_ny g) in
       let '(x0, x1, _) := norm_bounds sx (g_nx g) in
       g_ny g' = (y1 - y0)%Z /\ g_nx g' = (x1 - x0)%Z /\ g_crs g' = g_crs g /\
       forall p, peq (gcp_pix2wld p2w g' p) (gcp_pix2wld p2w g (fst p + Zq x0, snd p + Zq y0))) /\
    (forall g padx pady p,
       peq (gcp_pix2wld p2w (pad g padx pady) p)
           (gcp_pix2wld p2w g (fst p - Zq padx, snd p - Zq (fill pady padx)))) /\
    (forall g f g', 0 < f -> zoom_out g f = Ok g' ->
       forall p, peq (gcp_pix2wld p2w g' p) (gcp_pix2wld p2w g (f * fst p, f * snd p))).
Proof.
  intros p2w H. split; [exact (gcp_getitem p2w H)|]. split; [exact (gcp_pad p2w H) | exact (gcp_zoom_out p2w H)].
Qed.
Print Assumptions C02_gcp_getitem_pad_zoom.

Theorem C02_gcp_roundtrip :
  forall (p2w w2p : pt -> pt) g p, invertible g -> (forall q, peq (w2p (p2w q)) q) ->
    peq (gcp_wld2pix w2p g (gcp_pix2wld p2w g p)) p.
Proof.
  intros p2w w2p g p Hi Hinv. apply peq_trans with (wld2pix g (pix2wld g p)); [|apply apply_inv_l, Hi].
  apply apply_Proper; [reflexivity | apply Hinv].
Qed.
Print Assumptions C02_gcp_roundtrip.

(** exact when the control points are affinely related (the fit is the affine map M) *)
Theorem C02_gcp_affine_exact :
  forall (p2w : pt -> pt) g M p, (forall q, peq (p2w q) (apply M q)) ->
    peq (gcp_pix2wld p2w g p) (pix2wld (gcp_approx M g) p) /\
    g_ny (gcp_approx M g) = g_ny g /\ g_nx (gcp_approx M g) = g_nx g /\ g_crs (gcp_approx M g) = g_crs g.
Proof.
  intros p2w g M p H. split; [|repeat split].
  unfold gcp_pix2wld. rewrite H. symmetry. apply apply_mul.
Qed.
Print Assumptions C02_gcp_affine_exact.

(** ** Non-vacuity: concrete instances (evaluated, not assumed) *)
Definition ex_rot : geobox := mkG 10 20 (mkA 3 (-4) 100 4 3 (-50)) 2.   (* 3-4-5 rotation, scale 5 *)
Definition ex_cfg : cfg := mkCfg (1 # 10000000000) (1 # 10) (1 # 100).

Example C02_ex_invertible : invertible ex_rot.
Proof. unfold invertible, ex_rot, adet; simpl. intros H. discriminate H. Qed.

Example C02_ex_bbox : boundingbox ex_rot = (60, -50, 160, 60).
Proof. vm_compute. reflexivity. Qed.

Example C02_ex_resolution : res_eqb (pair_eqb Qeqb Qeqb) (resolution ex_cfg ex_rot) (Ok (5, 5)) = true.
Proof. vm_compute. reflexivity. Qed.

Example C02_ex_last_row :
  res_eqb gb_eqb (getitem ex_rot (RInt (-1))) (Ok (mkG 1 20 (mkA 3 (-4) 64 4 3 (-23)) 2)) = true.
Proof. vm_compute. reflexivity. Qed.

Example C02_ex_slices :
  res_eqb gb_eqb (getitem ex_rot (RTup [SSl (Some (-3)%Z) None None; SSl (Some 2%Z) (Some (-2)%Z) (Some 1%Z)]))
                 (Ok (mkG 3 16 (mkA 3 (-4) 78 4 3 (-21)) 2)) = true.
Proof. vm_compute. reflexivity. Qed.

Example C02_ex_zoom_out : exists g', zoom_out ex_rot (3 # 2) = Ok g' /\ g_ny g' = 7%Z /\ g_nx g' = 14%Z.
Proof. eexists; split; [vm_compute; reflexivity | split; reflexivity]. Qed.

Example C02_ex_buffered :
  exists g', buffered ex_cfg ex_rot 12 None = Ok g' /\ g_ny g' = 16%Z /\ g_nx g' = 26%Z.
Proof. eexists; split; [vm_compute; reflexivity | split; reflexivity]. Qed.

Example C02_ex_zoom_to_res :
  exists g', zoom_to_res ex_cfg ex_rot 10 (-10) = Ok g' /\ g_ny g' = 11%Z /\ g_nx g' = 10%Z.
Proof. eexists; split; [vm_compute; reflexivity | split; reflexivity]. Qed.
