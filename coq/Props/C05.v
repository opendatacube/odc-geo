(** Property C05 — parallel (dask) COG writer: layout rule, tile enumeration,
    offsets, overview-first.  Statements, each an instance or a short
    consequence of lemmas from Proofs/, followed by [Print Assumptions].

    Vocabulary (Model/CogLayout.v follows odc/geo/cog/_shared.py and
    odc/geo/cog/_tifffile.py statement by statement):
      [make_levels bs (H, W)]   per-IFD (shape, tile) sequence of _make_empty_cog
      [flat_tile_idx], [tidx], [cog_tidx], [writer_order]   tile enumeration
      [extract_tile_info], [patch_hdr_tags]   offsets/bytecounts (tags 324/325)
                                from the observed (tile, size) stream
    An observed stream is a list of [((level, plane, iy, ix), size)]. *)
From Coq Require Import ZArith List Lia Permutation.
From OG Require Import Base.Result Base.ListSel Model.Roi Model.CogLayout
  Proofs.CogLayoutProofs Proofs.CogTilesProofs Proofs.CogOffsetsProofs Proofs.CogTidxOrder.
Import ListNotations.
Open Scope Z_scope.

(** ** 1. tile sizes are positive multiples of 16 (adjust_blocksize / norm_blocksize) *)
Theorem C05_tile_sizes_multiple_of_16 :
  forall b : blk, blk_pos b ->
    0 < fst (norm_blocksize b) /\ fst (norm_blocksize b) mod 16 = 0 /\
    0 < snd (norm_blocksize b) /\ snd (norm_blocksize b) mod 16 = 0.
Proof. exact norm_blocksize_spec. Qed.
Print Assumptions C05_tile_sizes_multiple_of_16.

Theorem C05_adjust_blocksize :
  forall block dim, 1 <= block ->
    0 < adjust_blocksize block dim /\ adjust_blocksize block dim mod 16 = 0.
Proof. exact adjust_blocksize_spec. Qed.
Print Assumptions C05_adjust_blocksize.

(** ** 2. overview count: the least c with dim // 2^c <= block *)
Theorem C05_overview_count :
  forall block dim, 0 <= block -> 1 <= dim ->
    exists c, num_overviews block dim = Ok c /\ 0 <= c /\ dim / 2 ^ c <= block /\
              (forall k, 0 <= k < c -> block < dim / 2 ^ k).
Proof. exact num_overviews_spec. Qed.
Print Assumptions C05_overview_count.

(** ** 3. the layout rule, for every image shape >= 1 and every non-empty list
    of positive block sizes: n is the larger of the two per-axis overview
    counts (taken with the LAST block size); level 0 is the image padded to
    align_up(dim, 2^n) (so 0 <= padding < 2^n, on the far side only); there are
    n+1 levels; level k has tile norm_blocksize(bs[min k last]) (positive
    multiples of 16) and shape padded / 2^k with NO rounding (shape_k * 2^k =
    padded), every level being at least 1x1. *)
Theorem C05_layout_rule :
  forall bs H W, bs <> [] -> Forall blk_pos bs -> 1 <= H -> 1 <= W ->
  exists lv n nh nw,
    make_levels bs (H, W) = Ok (lv, n) /\
    num_overviews (fst (norm_blocksize (last bs (BInt 0)))) H = Ok nh /\
    num_overviews (snd (norm_blocksize (last bs (BInt 0)))) W = Ok nw /\
    n = Z.max nh nw /\ 0 <= n /\
    length lv = S (Z.to_nat n) /\
    let H' := align_up H (2 ^ n) in
    let W' := align_up W (2 ^ n) in
    (H <= H' /\ H' - H < 2 ^ n /\ H' mod 2 ^ n = 0) /\
    (W <= W' /\ W' - W < 2 ^ n /\ W' mod 2 ^ n = 0) /\
    forall k, 0 <= k <= n ->
      exists l, nth_error lv (Z.to_nat k) = Some l /\
        l_tile l = norm_blocksize (nth_block bs (Z.to_nat k)) /\
        tile_ok (l_tile l) /\
        l_shape l = (H' / 2 ^ k, W' / 2 ^ k) /\
        fst (l_shape l) * 2 ^ k = H' /\ snd (l_shape l) * 2 ^ k = W' /\
        1 <= fst (l_shape l) /\ 1 <= snd (l_shape l).
Proof.
  intros bs H W Hne Hall HH HW.
  destruct (make_levels_ok bs H W Hne Hall HH HW) as (nh & nw & Enh & Enw & Hn & E).
  eexists _, _, nh, nw. split; [exact E|]. split; [exact Enh|]. split; [exact Enw|].
  split; [reflexivity|]. split; [exact Hn|]. split; [apply length_gen_levels|]. cbn zeta.
  split; [apply padding_spec, Hn|]. split; [apply padding_spec, Hn|].
  intros k Hk. rewrite nth_gen_levels by lia. eexists. split; [reflexivity|].
  cbn [l_tile l_shape fst snd]. rewrite Z2Nat.id by lia. rewrite Forall_forall in Hall.
  pose proof (padded_level H _ k HH Hk). pose proof (padded_level W _ k HW Hk).
  split; [reflexivity|]. split; [apply norm_blocksize_spec, Hall, nth_block_In, Hne | tauto].
Qed.
Print Assumptions C05_layout_rule.

(** each overview is exactly half of the previous level — no rounding ever occurs *)
Theorem C05_overview_exactly_half :
  forall bs H W lv n k a b,
    bs <> [] -> Forall blk_pos bs -> 1 <= H -> 1 <= W ->
    make_levels bs (H, W) = Ok (lv, n) -> 0 <= k < n ->
    nth_error lv (Z.to_nat k) = Some a -> nth_error lv (Z.to_nat (k + 1)) = Some b ->
    fst (l_shape b) * 2 = fst (l_shape a) /\ snd (l_shape b) * 2 = snd (l_shape a).
Proof.
  intros bs H W lv n k a b Hne Hall HH HW E Hk Ea Eb.
  destruct (make_levels_inv bs H W lv n Hne Hall HH HW E) as (Hn & ->).
  rewrite nth_gen_levels in Ea, Eb by lia. injection Ea as <-. injection Eb as <-.
  cbn [l_shape fst snd]. rewrite !Z2Nat.id by lia.
  split; apply halving_exact with (n := n); try lia; apply padding_spec, Hn.
Qed.
Print Assumptions C05_overview_exactly_half.

(** the CogMeta list built by _make_empty_cog for the accepted array layouts *)
Theorem C05_make_empty_cog_metas :
  forall shape gshape ya bs ax yaxis,
    yaxis_from_shape shape gshape ya = Ok (ax, yaxis) ->
    bs <> [] -> Forall blk_pos bs -> Forall (fun d => 1 <= d) shape ->
    exists H W ns lv n,
      (match ax with
       | YX => shape = [H; W] /\ ns = 1
       | YXS => shape = [H; W; ns]
       | SYX => shape = [ns; H; W]
       end) /\
      make_levels bs (H, W) = Ok (lv, n) /\
      make_metas shape gshape ya bs = Ok (metas_of ax ns lv) /\
      Forall wf_meta (metas_of ax ns lv) /\ uniform_planes (metas_of ax ns lv).
Proof. exact make_metas_spec. Qed.
Print Assumptions C05_make_empty_cog_metas.

(** default block sizes of save_cog_with_dask are positive, so the layout
    theorems apply to them *)
Theorem C05_default_blocksize_positive :
  forall chunks, 1 <= fst chunks -> 1 <= snd chunks ->
    default_blocksize chunks <> [] /\ Forall blk_pos (default_blocksize chunks).
Proof.
  intros chunks A B. unfold default_blocksize. split; [discriminate|].
  repeat constructor; simpl; lia.
Qed.
Print Assumptions C05_default_blocksize_positive.

(** a tile without a source block (compressed from an empty block) lies entirely
    in the padding; a tile with a source block contains at least one data row/column *)
Theorem C05_tiles_without_source_are_padding :
  forall dim tile y, 0 < tile -> 1 <= dim -> 0 <= y ->
    (y < nblocks dim tile -> y * tile < dim) /\ (nblocks dim tile <= y -> dim <= y * tile).
Proof.
  intros dim tile y Ht Hd Hy. pose proof (nblocks_covers dim tile Ht) as C. split; intros H.
  - pose proof (Z.mul_le_mono_nonneg_r y (nblocks dim tile - 1) tile). lia.
  - pose proof (Z.mul_le_mono_nonneg_r (nblocks dim tile) y tile). lia.
Qed.
Print Assumptions C05_tiles_without_source_are_padding.

(** tiles cover the image: chunked * tile >= shape > (chunked - 1) * tile *)
Theorem C05_tiles_cover_image :
  forall m, wf_meta m ->
    (fst (chunked m) - 1) * fst (m_tile m) < fst (m_shape m) <= fst (chunked m) * fst (m_tile m) /\
    (snd (chunked m) - 1) * snd (m_tile m) < snd (m_shape m) <= snd (chunked m) * snd (m_tile m).
Proof.
  intros m (_ & _ & C & D & _). rewrite chunked_eq. cbn [fst snd].
  split; apply nblocks_covers; assumption.
Qed.
Print Assumptions C05_tiles_cover_image.

(** ** 4. flat_tile_idx is a bijection planes x ny x nx -> [0, num_tiles) *)
Theorem C05_flat_tile_idx_in_range :
  forall m idx, in_range m idx ->
    exists t, flat_tile_idx m idx = Ok t /\ 0 <= t < num_tiles m /\ unflat m t = idx.
Proof.
  intros m idx R. exists (flat_idx m idx). split; [apply flat_tile_idx_eq, R|].
  split; [apply flat_idx_bound, R | apply unflat_flat, R].
Qed.
Print Assumptions C05_flat_tile_idx_in_range.

Theorem C05_flat_tile_idx_out_of_range :
  forall m idx, ~ in_range m idx -> flat_tile_idx m idx = Err EIndex.
Proof.
  intros m idx N. destruct (flat_tile_idx_cases m idx) as [[R _] | [_ E]]; [contradiction | exact E].
Qed.
Print Assumptions C05_flat_tile_idx_out_of_range.

Theorem C05_flat_tile_idx_injective :
  forall m a b t, flat_tile_idx m a = Ok t -> flat_tile_idx m b = Ok t -> a = b.
Proof. exact flat_tile_idx_inj. Qed.
Print Assumptions C05_flat_tile_idx_injective.

Theorem C05_flat_tile_idx_surjective :
  forall m t, wf_meta m -> 0 <= t < num_tiles m ->
    in_range m (unflat m t) /\ flat_tile_idx m (unflat m t) = Ok t.
Proof.
  intros m t Hwf Ht. destruct (chunked_pos m Hwf) as (Wy & Wx & _).
  destruct (flat_unflat m t) as [R E]; [lia | lia | exact Ht |].
  split; [exact R|]. rewrite flat_tile_idx_eq, E by exact R. reflexivity.
Qed.
Print Assumptions C05_flat_tile_idx_surjective.

(** tidx / cog_tidx enumerate every tile exactly once *)
Theorem C05_tidx_enumerates_once :
  forall m, NoDup (tidx m) /\ forall idx, In idx (tidx m) <-> in_range m idx.
Proof. intros m. split; [apply NoDup_tidx | apply in_tidx]. Qed.
Print Assumptions C05_tidx_enumerates_once.

(** ... and in flat-index order: position k of the tidx() stream is tile k of
    TileOffsets/TileByteCounts (a list equation, not only a bijection) *)
Theorem C05_tidx_in_flat_order :
  forall m, wf_counts m ->
    map (flat_tile_idx m) (tidx m) = map (@Ok Z) (CogLayout.zrange (num_tiles m)).
Proof. exact tidx_flat_order. Qed.
Print Assumptions C05_tidx_in_flat_order.

Theorem C05_wf_counts_of_positive_tiles :
  forall m, 0 <= m_nsamples m -> 0 <= fst (m_shape m) -> 0 <= snd (m_shape m) ->
    0 < fst (m_tile m) -> 0 < snd (m_tile m) -> wf_counts m.
Proof.
  intros m Hn Hh Hw Hth Htw. unfold wf_counts. rewrite chunked_eq. cbn [fst snd].
  split; [unfold num_planes; destruct (m_axis m); lia|]. split; apply nblocks_nonneg; assumption.
Qed.
Print Assumptions C05_wf_counts_of_positive_tiles.

(** per-plane stream tidx(sample_idx=s): plane s fills the contiguous flat slots
    [s*ny*nx, (s+1)*ny*nx) in order *)
Theorem C05_tidx_plane_in_flat_order :
  forall m s, wf_counts m -> 0 <= s < num_planes m ->
    map (flat_tile_idx m) (tidx_plane m s) =
    map (fun j => Ok (s * (fst (chunked m) * snd (chunked m)) + j))
        (CogLayout.zrange (fst (chunked m) * snd (chunked m))).
Proof. exact tidx_plane_flat_order. Qed.
Print Assumptions C05_tidx_plane_in_flat_order.

Theorem C05_cog_tidx_enumerates_once :
  forall mm, NoDup (cog_tidx mm) /\ forall t, In t (cog_tidx mm) <-> valid_tile mm t.
Proof. intros mm. split; [apply NoDup_cog_tidx | apply in_cog_tidx]. Qed.
Print Assumptions C05_cog_tidx_enumerates_once.

(** ** 5. offsets.  For EVERY observed stream that enumerates each tile exactly
    once, in any order, with any sizes: _extract_tile_info succeeds and the
    entry of the n-th stream element is (start + sum of the sizes before it,
    its size); a zero-size tile keeps the initial (0, 0) entry. *)
Theorem C05_offsets_exact :
  forall mm stream start, complete_stream mm stream ->
  exists info,
    extract_tile_info mm stream start = Ok info /\ wf_info mm info /\
    forall n o, nth_error stream n = Some o ->
      getE info (key_fn mm (tile_of o)) =
        if size_of o =? 0 then (0, 0) else (start + presum (map size_of stream) n, size_of o).
Proof. exact extract_tile_info_spec. Qed.
Print Assumptions C05_offsets_exact.

(** what _patch_hdr writes into tags 324/325: the same shifted by the header
    length; an empty tile gets (hdr_sz, 0), i.e. an empty byte range *)
Theorem C05_header_entries :
  forall mm stream hdr_sz, complete_stream mm stream ->
  exists tags,
    patch_hdr_tags mm stream hdr_sz = Ok tags /\ length tags = length mm /\
    forall n o, nth_error stream n = Some o ->
      getE tags (key_fn mm (tile_of o)) =
        if size_of o =? 0 then (hdr_sz, 0)
        else (hdr_sz + presum (map size_of stream) n, size_of o).
Proof. exact patch_hdr_tags_spec. Qed.
Print Assumptions C05_header_entries.

(** every tile of the image is described by the two theorems above, and
    distinct tiles have distinct table slots *)
Theorem C05_every_tile_has_an_entry :
  forall mm stream t, complete_stream mm stream -> valid_tile mm t ->
    exists n o, nth_error stream n = Some o /\ tile_of o = t.
Proof.
  intros mm stream t Hc Hv. apply in_cog_tidx in Hv.
  apply (Permutation_in _ (Permutation_sym Hc)) in Hv. apply in_map_iff in Hv as (o & E & Ho).
  apply In_nth_error in Ho as (n & Hn). eauto.
Qed.
Print Assumptions C05_every_tile_has_an_entry.

Theorem C05_distinct_tiles_distinct_slots :
  forall mm a b, valid_tile mm a -> valid_tile mm b -> key_fn mm a = key_fn mm b -> a = b.
Proof. exact key_fn_inj. Qed.
Print Assumptions C05_distinct_tiles_distinct_slots.

(** byte ranges [off n, off n + size n) with off n = start + presum sizes n:
    in stream order and pairwise disjoint ... *)
Theorem C05_offsets_in_stream_order_and_disjoint :
  forall sizes start n1 n2 s1,
    Forall (fun s => 0 <= s) sizes -> (n1 < n2)%nat -> nth_error sizes n1 = Some s1 ->
    start + presum sizes n1 + s1 <= start + presum sizes n2.
Proof. exact offsets_ordered. Qed.
Print Assumptions C05_offsets_in_stream_order_and_disjoint.

(** ... inside the data area ... *)
Theorem C05_offsets_within_data_area :
  forall sizes start n s,
    Forall (fun s => 0 <= s) sizes -> nth_error sizes n = Some s ->
    start <= start + presum sizes n /\ start + presum sizes n + s <= start + zsum sizes.
Proof.
  intros sizes start n s Hs E. pose proof (presum_nonneg sizes n Hs).
  pose proof (presum_le_zsum sizes (S n) Hs) as Hle. rewrite (presum_step _ _ _ E) in Hle. lia.
Qed.
Print Assumptions C05_offsets_within_data_area.

(** ... and gap-free: every byte of the data area belongs to a tile, and (next theorem) to one only *)
Theorem C05_offsets_gap_free :
  forall sizes start b,
    Forall (fun s => 0 <= s) sizes -> start <= b < start + zsum sizes ->
    exists n s, nth_error sizes n = Some s /\
                start + presum sizes n <= b < start + presum sizes n + s.
Proof. exact offsets_gap_free. Qed.
Print Assumptions C05_offsets_gap_free.

Theorem C05_offsets_no_overlap :
  forall sizes start b n1 n2 s1 s2,
    Forall (fun s => 0 <= s) sizes ->
    nth_error sizes n1 = Some s1 -> nth_error sizes n2 = Some s2 ->
    start + presum sizes n1 <= b < start + presum sizes n1 + s1 ->
    start + presum sizes n2 <= b < start + presum sizes n2 + s2 ->
    n1 = n2.
Proof.
  intros sizes start b n1 n2 s1 s2 Hs E1 E2 B1 B2.
  destruct (Nat.lt_trichotomy n1 n2) as [H | [H | H]]; auto.
  - pose proof (offsets_ordered sizes start n1 n2 s1 Hs H E1). lia.
  - pose proof (offsets_ordered sizes start n2 n1 s2 Hs H E2). lia.
Qed.
Print Assumptions C05_offsets_no_overlap.

(** ** 6. each entry addresses exactly its tile's bytes — conditional on the
    byte-stream theorem of property C06 (multi-part assembly): the file is the
    header followed by the encoded tiles in observed order. *)
Section WithC06.
  Context {A : Type}.
  Variable encoded : obs -> list A.          (* bytes produced for a stream element *)
  Variable hdr : list A.                     (* header returned by _patch_hdr *)
  Variable file : list A.
  Variable stream : list obs.
  Hypothesis sizes_observed : forall o, In o stream -> size_of o = len (encoded o).
  Hypothesis C06_stream_preserved : file = hdr ++ concat (map encoded stream).

  Theorem C05_entry_addresses_tile_bytes :
    forall n o, nth_error stream n = Some o ->
      let off := len hdr + presum (map size_of stream) n in
      sel file off (off + size_of o) = encoded o.
  Proof.
    intros n o E. cbv zeta. rewrite C06_stream_preserved, (sizes_observed o (nth_error_In _ _ E)).
    rewrite (map_ext_in _ _ _ sizes_observed), <- (map_map encoded len).
    apply sel_concat_nth, map_nth_error, E.
  Qed.
End WithC06.
Print Assumptions C05_entry_addresses_tile_bytes.

(** ** 7. the writer's own order (bags reversed: smallest level first) is a
    complete stream when all levels have the same number of planes, and with it
    every overview tile ends before any full-resolution tile starts. *)
Theorem C05_writer_order_complete :
  forall mm, uniform_planes mm -> Permutation (writer_order mm) (cog_tidx mm).
Proof.
  intros mm U. unfold writer_order, cog_tidx.
  rewrite Permutation_concat_rev, concat_bags by exact U.
  apply Permutation_flat_map, Permutation_rev.
Qed.
Print Assumptions C05_writer_order_complete.

Theorem C05_overview_first :
  forall mm (stream : list obs) start n1 n2 o1 o2,
    map tile_of stream = writer_order mm ->
    Forall (fun o => 0 <= size_of o) stream ->
    nth_error stream n1 = Some o1 -> nth_error stream n2 = Some o2 ->
    1 <= lvl (tile_of o1) -> lvl (tile_of o2) = 0 ->
    start + presum (map size_of stream) n1 + size_of o1 <= start + presum (map size_of stream) n2.
Proof.
  intros mm stream start n1 n2 o1 o2 Hw Hs E1 E2 L1 L2.
  apply offsets_ordered; [apply Forall_map, Hs | | apply map_nth_error, E1].
  apply (writer_order_levels mm n1 n2 (tile_of o1) (tile_of o2)); auto;
    rewrite <- Hw; apply map_nth_error; assumption.
Qed.
Print Assumptions C05_overview_first.

(** ** 8. non-vacuity: a 50 x 70 image, blocksize [32, 16]: 3 overviews, padded
    to 56 x 72, levels halve exactly. *)
Example C05_example_layout :
  make_levels [BInt 32; BInt 16] (50, 70) =
    Ok ([Level (56, 72) (32, 32); Level (28, 36) (16, 16); Level (14, 18) (16, 16); Level (7, 9) (16, 16)], 3).
Proof. vm_compute. reflexivity. Qed.

Example C05_example_stream :
  let mm := metas_of YX 1 [Level (56, 72) (32, 32); Level (28, 36) (16, 16);
                           Level (14, 18) (16, 16); Level (7, 9) (16, 16)] in
  let stream := map (fun t => (t, if lvl t =? 3 then 0 else 10 + lvl t)) (writer_order mm) in
  length stream = 15%nat /\
  patch_hdr_tags mm stream 1000 =
    Ok [([1090; 1100; 1110; 1120; 1130; 1140], [10; 10; 10; 10; 10; 10]);
        ([1024; 1035; 1046; 1057; 1068; 1079], [11; 11; 11; 11; 11; 11]);
        ([1000; 1012], [12; 12]);
        ([1000], [0])] /\
  uniform_planes mm /\ complete_stream mm stream.
Proof.
  cbn zeta. split; [vm_compute; reflexivity|]. split; [vm_compute; reflexivity|].
  split; [apply uniform_planes_map|].
  unfold complete_stream. rewrite map_map. cbn [tile_of fst]. rewrite map_id.
  apply C05_writer_order_complete, uniform_planes_map.
Qed.

(** Tie to the source: adjust_blocksize and num_overviews (its while loop as a fixpoint on explicit
    fuel) as regenerated by tools/py2v from the current odc/geo/cog/_shared.py (coq/Gen/CogGen.v,
    rewritten on every run) are the model (Model/CogLayout.v) the theorems above are stated on. *)
From OG Require Proofs.CogGenEquiv.
Theorem C05_source_is_model : OG.Proofs.CogGenEquiv.cog_source_is_model.
Proof. exact OG.Proofs.CogGenEquiv.cog_source_is_model_holds. Qed.
Print Assumptions C05_source_is_model.

(** ** Composition with C06, unconditional: in the file assembled by [mpu_write] along ANY merge
    tree (every partitioning of the tile stream, every bracketing of merges, every spill size,
    writes-per-chunk and writer limits with enough part numbers), the offset computed from the
    sizes the header callback observed addresses exactly the bytes of that tile.  This discharges
    the hypothesis [C06_stream_preserved] of [C05_entry_addresses_tile_bytes] with the theorem of
    property C06 (Model/Mpu.v); [zsum (firstn n sizes)] is [presum sizes n]. *)
From OG Require Model.Mpu Proofs.MpuProofs Proofs.CogMpuCompose.
Theorem C05_offsets_address_tiles_under_any_schedule :
  forall (A CI : Type) (pw : OG.Model.Mpu.writer), 0 <= OG.Model.Mpu.minw pw ->
  forall wpc spill (hdr : list A) (t : OG.Model.Mpu.tree A CI),
    1 <= wpc -> 0 <= spill -> OG.Model.Mpu.tree_ok t ->
    OG.Model.Mpu.minp pw + OG.Model.Mpu.nleaves t * wpc <= OG.Model.Mpu.maxp pw ->
    exists fp log,
      OG.Model.Mpu.mpu_write OG.Model.Mpu.fixed pw wpc spill hdr false [] t
        = Ok (fp, log, OG.Model.Mpu.obs_of (OG.Model.Mpu.tree_chunks t)) /\
      let file := concat (map snd fp) in
      let sizes := map fst (OG.Model.Mpu.obs_of (OG.Model.Mpu.tree_chunks t)) in
      forall n c, nth_error (OG.Model.Mpu.tree_chunks t) n = Some c ->
        let off := len hdr + OG.Proofs.CogMpuCompose.zsum (firstn n sizes) in
        sel file off (off + len (fst c)) = fst c.
Proof. exact @OG.Proofs.CogMpuCompose.offsets_address_chunks_in_assembled_file. Qed.
Print Assumptions C05_offsets_address_tiles_under_any_schedule.
