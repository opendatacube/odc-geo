(** Property C10 — the paste shortcut is pixel-identical to a nearest-neighbour warp.
    The lemmas are in Proofs/OverlapProofs.v and Proofs/PasteProofs.v.

    An image is a function row -> column -> value over an arbitrary value type
    [V] (every pixel type).  [paste_img] is "fill with nodata, then
    dst[roi_dst] = src[roi_src] reversed along mirrored axes"; [warp_nn] is the
    nearest-neighbour warp contract (destination pixel takes the source pixel
    containing the image of its centre, nodata outside) — GDAL/rasterio is
    validated against that contract by the harness, it is not proved. *)
From Coq Require Import ZArith QArith Qround Qabs List Bool Lia Lqa.
From OG Require Import Base.Result Base.QZ Model.Overlap Model.Paste Proofs.OverlapProofs Proofs.PasteProofs.
Import ListNotations.
Open Scope Q_scope.

(** one axis, unit scale (+1 or mirrored -1), whole-pixel shift T *)
Theorem C10_axis_paste_identity :
  forall (Ns Nd T : Z) (flip : bool), (0 <= Ns)%Z -> (0 <= Nd)%Z ->
  let s := if flip then inject_Z (-1) else inject_Z 1 in
  let nn := fun d => if flip then (T - 1 - d)%Z else (d + T)%Z in
  exists src dst, axis_overlap Ns Nd s (inject_Z T) = Ok (src, dst) /\
    (* same length *)
    (snd src - fst src = snd dst - fst dst)%Z /\
    (* the destination slice is exactly the set of pixels that map inside the source *)
    (forall d, (0 <= d < Nd)%Z -> (in_sl dst d <-> (0 <= nn d < Ns)%Z)) /\
    (* and the element pasted there is the nearest-neighbour one *)
    (forall d, in_sl dst d -> paste_index src dst flip d = nn d).
Proof.
  intros Ns Nd T flip HNs HNd s nn. destruct (axis_unit Ns Nd T flip HNs HNd) as (src & dst & E & _ & _ & U1 & U2 & U3).
  exists src, dst. split; [exact E|]. split; [exact U1|]. split; [exact U2|]. intros d Hd. apply U3, Hd.
Qed.
Print Assumptions C10_axis_paste_identity.

(** floor(+-(d+1/2) + T + eps) = +-d + T (-1 when mirrored) for |eps| < 1/2 *)
Theorem C10_nearest_index_within_half_pixel :
  forall (T d : Z) (flip : bool) (x : Q),
  let s := if flip then inject_Z (-1) else inject_Z 1 in
  Qabs (x - (s * (inject_Z d + (1#2)) + inject_Z T)) < 1#2 ->
  Qfloor x = if flip then (T - 1 - d)%Z else (d + T)%Z.
Proof.
  intros T d flip x s H. change s with (unit_q flip) in H. rewrite nn_unit_half in H. exact (Qfloor_near_half _ _ H).
Qed.
Print Assumptions C10_nearest_index_within_half_pixel.

(** pasted image = warped image, every pixel, every value type: for a paste plan with
    read_shrink = 1 and source locations [loc] within half a pixel of the snapped transform *)
Theorem C10_paste_equals_warp :
  forall (V : Type) (src : img V) (nodata : V)
         c ss ds A F ttol stol padding align r (loc : Z -> Z -> Q * Q),
  reproject_linear c ss ds A F ttol stol padding align = Ok r ->
  paste_ok r = true -> read_shrink r = 1%Z ->
  (0 <= fst ss)%Z -> (0 <= snd ss)%Z -> (0 <= fst ds)%Z -> (0 <= snd ds)%Z -> tol_ok c stol ->
  let P := paste_affine c A ttol stol 1 in
  (* [loc] = true source location of each destination pixel centre, less than half a pixel
     away from the snapped transform *)
  (forall dy dx, (0 <= dy < fst ds)%Z -> (0 <= dx < snd ds)%Z ->
     Qabs (fst (loc dy dx) - fst (aff_apply P (pix_center dy dx))) < 1#2 /\
     Qabs (snd (loc dy dx) - snd (aff_apply P (pix_center dy dx))) < 1#2) ->
  forall dy dx, (0 <= dy < fst ds)%Z -> (0 <= dx < snd ds)%Z ->
    paste_img src nodata (roi_src r) (roi_dst r) (Qltb (ae A) 0) (Qltb (aa A) 0) dy dx =
    warp_nn src nodata ss loc dy dx.
Proof.
  intros V src nodata c ss ds A F ttol stol padding align r loc Hr Hp Hk S1 S2 D1 D2 Htol P Hloc dy dx Hdy Hdx.
  destruct (paste_structure _ _ _ _ _ _ _ _ _ _ Hr Hp S1 S2 D1 D2 Htol)
    as (_ & tx & ty & rs & rd & HP & Fy & Fx & -> & -> & _).
  rewrite Hk in HP, Fy, Fx |- *.
  destruct (Hloc dy dx Hdy Hdx) as [Lx Ly]. unfold P in Lx, Ly. rewrite HP in Lx, Ly.
  destruct (aff_apply_unit (Qltb (aa A) 0) (Qltb (ae A) 0) tx ty dy dx) as [Ex Ey]. rewrite Ex in Lx. rewrite Ey in Ly.
  exact (paste_img_warp V src nodata ss ds rs rd _ _ ty tx loc dy dx Fy Fx Hdy Hdx Lx Ly).
Qed.
Print Assumptions C10_paste_equals_warp.

(** the half-pixel hypothesis holds for the true transform [A] itself whenever its scale is
    exactly +-1 and it has no rotation or shear: whole-pixel shift plus any residue accepted
    by ttol <= 1/2 *)
Theorem C10_true_transform_within_half_pixel :
  forall c A ttol stol sx sy,
  can_paste_code c A stol ttol = Ok 0%Z -> scale2 A = Ok (sx, sy) ->
  pick_read_scale (Qminq sx sy) (c_rs c) = Ok 1%Z -> tol_ok c stol -> ttol <= 1#2 ->
  aa A == unit_q (Qltb (aa A) 0) -> ae A == unit_q (Qltb (ae A) 0) -> ab A == 0 -> ad A == 0 ->
  let P := paste_affine c A ttol stol 1 in
  forall dy dx,
    Qabs (fst (aff_apply A (pix_center dy dx)) - fst (aff_apply P (pix_center dy dx))) < 1#2 /\
    Qabs (snd (aff_apply A (pix_center dy dx)) - snd (aff_apply P (pix_center dy dx))) < 1#2.
Proof.
  intros c A ttol stol sx sy Hc Hs Hk Htol Ht Ea Ee Eb Ed P dy dx.
  destruct (paste_affine_unit c A stol ttol sx sy 1 Hc Hs Hk Htol)
    as (_ & _ & _ & tx & ty & HP & _ & _ & Qx & _ & Qy & _).
  fold P in HP. rewrite HP. unfold aff_apply, pix_center. cbn [fst snd aa ab ac ad ae af].
  (* the linear parts agree, what is left is the shift residue bounded by ttol *)
  set (u := unit_q (Qltb (aa A) 0)) in *. set (v := unit_q (Qltb (ae A) 0)) in *.
  rewrite Ea, Eb, Ed, Ee.
  assert (C : forall p t t', p + t - (p + t') == t - t') by (intros; ring). rewrite !C.
  rewrite Qdiv_1 in Qx, Qy. split; lra.
Qed.
Print Assumptions C10_true_transform_within_half_pixel.

(** paste plan with read_shrink = k: on each axis the source region is k times as long as the
    destination region *)
Theorem C10_shrink_region_scaled :
  forall c ss ds A F ttol stol padding align r,
  reproject_linear c ss ds A F ttol stol padding align = Ok r -> paste_ok r = true ->
  (0 <= fst ss)%Z -> (0 <= snd ss)%Z -> (0 <= fst ds)%Z -> (0 <= snd ds)%Z -> tol_ok c stol ->
  let k := read_shrink r in
  (snd (fst (roi_src r)) - fst (fst (roi_src r)) = k * (snd (fst (roi_dst r)) - fst (fst (roi_dst r))))%Z /\
  (snd (snd (roi_src r)) - fst (snd (roi_src r)) = k * (snd (snd (roi_dst r)) - fst (snd (roi_dst r))))%Z.
Proof.
  intros c ss ds A F ttol stol padding align r Hr Hp S1 S2 D1 D2 Htol k.
  destruct (paste_structure _ _ _ _ _ _ _ _ _ _ Hr Hp S1 S2 D1 D2 Htol)
    as (_ & tx & ty & rs & rd & _ & (_ & _ & Ey & _) & (_ & _ & Ex & _) & -> & -> & _).
  rewrite up_roi_eq. cbn [fst snd]. fold k. lia.
Qed.
Print Assumptions C10_shrink_region_scaled.

(** ... its bounds are multiples of k, and position by position it is the k-fold block of the
    overview pixel that the snapped transform assigns (mirroring included) *)
Theorem C10_shrink_region_structure :
  forall c ss ds A F ttol stol padding align r,
  reproject_linear c ss ds A F ttol stol padding align = Ok r -> paste_ok r = true ->
  (0 <= fst ss)%Z -> (0 <= snd ss)%Z -> (0 <= fst ds)%Z -> (0 <= snd ds)%Z -> tol_ok c stol ->
  let k := read_shrink r in
  (1 <= k)%Z /\
  exists tx ty rs rd,
    paste_affine c A ttol stol k =
      mkAff (unit_q (Qltb (aa A) 0)) 0 (inject_Z tx) 0 (unit_q (Qltb (ae A) 0)) (inject_Z ty) /\
    axis_unit_facts (fst (src_dims ss k)) (fst ds) ty (Qltb (ae A) 0) (fst rs) (fst rd) /\
    axis_unit_facts (snd (src_dims ss k)) (snd ds) tx (Qltb (aa A) 0) (snd rs) (snd rd) /\
    roi_src r = up_roi rs k /\ roi_dst r = rd /\
    Qabs (ab A) < c_st c /\ Qabs (ad A) < c_st c /\
    Qabs (Qabs (aa A) / inject_Z k - 1) < stol /\ Qabs (Qabs (ae A) / inject_Z k - 1) < stol /\
    Qabs (ac A / inject_Z k - inject_Z tx) < ttol /\ Qabs (ac A / inject_Z k - inject_Z tx) <= half /\
    Qabs (af A / inject_Z k - inject_Z ty) < ttol /\ Qabs (af A / inject_Z k - inject_Z ty) <= half.
Proof. exact paste_structure. Qed.
Print Assumptions C10_shrink_region_structure.

(** paste eligibility: what [_can_paste] = True means, and that the snap that follows agrees *)
Theorem C10_can_paste_sound :
  forall c A stol ttol,
  can_paste c A stol ttol = Ok true -> tol_ok c stol ->
  exists sx sy k tx ty,
    scale2 A = Ok (sx, sy) /\ pick_read_scale (Qminq sx sy) (c_rs c) = Ok k /\ (1 <= k)%Z /\
    (* no rotation / shear beyond 1e-10 *)
    Qabs (ab A) < c_st c /\ Qabs (ad A) < c_st c /\
    (* near-integer scale *)
    (exists z, Qabs (Qminq sx sy - inject_Z z) < stol) /\
    (* both axes within stol (relative) of the integer read scale k *)
    Qabs (Qabs (aa A) / inject_Z k - 1) < stol /\ Qabs (Qabs (ae A) / inject_Z k - 1) < stol /\
    (* sub-pixel shift (in overview pixels) below ttol *)
    Qabs (ac A / inject_Z k - inject_Z tx) < ttol /\ Qabs (af A / inject_Z k - inject_Z ty) < ttol /\
    (* and snap_affine then yields exactly (+-1, whole-pixel shift): tolerance tests and snap agree *)
    paste_affine c A ttol stol k =
      mkAff (unit_q (Qltb (aa A) 0)) 0 (inject_Z tx) 0 (unit_q (Qltb (ae A) 0)) (inject_Z ty).
Proof.
  unfold can_paste. intros c A stol ttol H Htol.
  destruct (can_paste_code c A stol ttol) as [code|e] eqn:Ec; [|discriminate]. cbn [bind] in H.
  injection H as H. apply Z.eqb_eq in H. subst code.
  destruct (can_paste_code_ok _ _ _ _ Ec) as (sx & sy & k & Hs & Hk & _ & _ & Hai & _).
  destruct (paste_affine_unit c A stol ttol sx sy k Ec Hs Hk Htol) as (K1 & Hb & Hd & tx & ty & HP & Q).
  destruct Q as (Q1 & Q2 & Q3 & _ & Q5 & _). exists sx, sy, k, tx, ty. repeat split; assumption.
Qed.
Print Assumptions C10_can_paste_sound.

Theorem C10_never_paste_with_rotation_or_shear :
  forall c A stol ttol,
  c_st c <= Qabs (ab A) \/ c_st c <= Qabs (ad A) -> can_paste c A stol ttol = Ok false.
Proof.
  intros c A stol ttol H. unfold can_paste, can_paste_code.
  destruct (is_affine_st A (c_st c)) eqn:E; [|reflexivity].
  apply is_affine_st_spec in E. destruct E as [Eb Ed], H as [H | H]; [destruct (Qlt_not_le _ _ Eb H) | destruct (Qlt_not_le _ _ Ed H)].
Qed.
Print Assumptions C10_never_paste_with_rotation_or_shear.

(** paste is only planned by compute_reproject_roi when the caller asked for no padding/alignment *)
Theorem C10_paste_only_when_tight :
  forall c ss ds A F ttol stol padding align r,
  reproject_linear c ss ds A F ttol stol padding align = Ok r -> paste_ok r = true ->
  opt_in0 (norm_align align) = true /\ opt_in0 padding = true /\ can_paste_code c A stol ttol = Ok 0%Z.
Proof.
  intros c ss ds A F ttol stol padding align r Hr Hp.
  destruct (reproject_linear_cases _ _ _ _ _ _ _ _ _ _ Hr)
    as (sx & sy & _ & _ & _ & _ & [[Hf _] | (_ & H1 & H2 & H3 & _)]); [congruence | tauto].
Qed.
Print Assumptions C10_paste_only_when_tight.

Definition cdef : consts := mkConsts (1 # 10000000000) (1 # 100000000) (1 # 1000).

(** the hypotheses of [C10_paste_equals_warp] can be met.  Mirrored in x, shift 7 + 1/32 (below
    ttol = 1/20): a paste is planned, and the 3x4 pasted image of a 5x9 source equals the warp
    image computed from the TRUE transform *)
Example C10_ex_paste :
  let A := mkAff (-(1)) 0 (7 + (1#32)) 0 1 (-(1)) in
  let F := mkAff (-(1)) 0 (7 + (1#32)) 0 1 1 in
  let src := fun y x => (10 * y + x)%Z in
  exists r, reproject_linear cdef (5, 9)%Z (3, 4)%Z A F (1#20) (1#1000) None None = Ok r /\
    paste_ok r = true /\ read_shrink r = 1%Z /\ roi_src r = ((0, 2), (3, 7))%Z /\ roi_dst r = ((1, 3), (0, 4))%Z /\
    render (paste_img src (-1)%Z (roi_src r) (roi_dst r) (Qltb (ae A) 0) (Qltb (aa A) 0)) (3, 4)%Z =
    render (warp_nn src (-1)%Z (5, 9)%Z (pix_loc A)) (3, 4)%Z /\
    render (warp_nn src (-1)%Z (5, 9)%Z (pix_loc A)) (3, 4)%Z =
      [[-1; -1; -1; -1]; [6; 5; 4; 3]; [16; 15; 14; 13]]%Z.
Proof.
  eexists. split; [vm_compute; reflexivity|]. cbn [paste_ok read_shrink roi_src roi_dst].
  repeat split; vm_compute; reflexivity.
Qed.

Example C10_ex_can_paste :
  can_paste cdef (mkAff 3 0 (6 + (1#10)) 0 (-(3)) 9) (1#1000) (1#20) = Ok true /\
  can_paste cdef (mkAff 3 0 (6 + (1#5)) 0 (-(3)) 9) (1#1000) (1#20) = Ok false /\
  can_paste cdef (mkAff (5#2) 0 6 0 (-(5#2)) 9) (1#1000) (1#20) = Ok false /\
  tol_ok cdef (1#1000).
Proof. repeat split; try (vm_compute; reflexivity); unfold half; cbn; auto with qarith; discriminate. Qed.

(** Tie to the source: the definitions regenerated by tools/py2v from the current odc/geo/overlap.py and odc/geo/math.py (coq/Gen/MathGen.v, rewritten on every run) are the model (Model/Overlap.v) the theorems above are stated on, up to the error kind. *)
From OG Require Proofs.MathGenEquivO.
Theorem C10_source_is_model : OG.Proofs.MathGenEquivO.overlap_source_is_model.
Proof. exact OG.Proofs.MathGenEquivO.overlap_source_is_model_holds. Qed.
Print Assumptions C10_source_is_model.
